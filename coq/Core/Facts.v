(* Lemmas about the shared calculus (Alg, Syntax, Den) that several property developments use:
   unfolding equations of [den] at the constructors whose clause is not a plain recursive call,
   extensionality of the matrix operators, closure of sub-fields under the literal embeddings,
   and induction on the size of expressions. *)
Require Export UFLV.Core.Den.

(* [H : a && b && ... = true] in the context or the goal is split into its conjuncts *)
Ltac bsplit :=
  repeat match goal with
         | H : _ && _ = true |- _ => apply andb_prop in H; destruct H
         | |- _ && _ = true => apply andb_true_intro; split
         end.

Section AlgFacts.
Variable A : ualg.
Add Field AfFacts : (kfield A).
Open Scope K_scope.

Lemma of_nat_succ n : @of_nat A (S n) = of_nat n + k1.
Proof.
  unfold of_nat. rewrite Nat2Z.inj_succ. destruct (Z.of_nat n) as [|p|p] eqn:E; [cbn; ring| |lia].
  cbn [Z.succ Z.add of_Z]. rewrite Pos.add_1_r. apply of_pos_succ.
Qed.

Lemma div_def (x y : A) : x / y = x * kinv y.
Proof. apply (Fdiv_def (kfield A)). Qed.

Lemma div_zero_l (y : A) : k0 / y = k0.
Proof. rewrite div_def. ring. Qed.

(* a difference as the rule tables write it, [Sum x (Product (IntV (-1)) y)]: the form in which the
   quotient rule [d_div] is the value of the Division rule's expression *)
Lemma sub_opp_mul (x y : A) : x - y = x + of_Z (-1) * y.
Proof. cbn [of_Z of_pos]. ring. Qed.

(* Kronecker delta and its elimination under a sum *)
Definition delta (i j : nat) : A := if Nat.eqb i j then k1 else k0.

Lemma ksum_delta n j (f : nat -> A) : j < n -> ksum n (fun k => delta k j * f k) = f j.
Proof.
  unfold delta. induction n as [|n IH]; intros Hj; [lia|]. cbn [ksum].
  destruct (Nat.eqb_spec n j) as [->|Hn].
  - rewrite (ksum_ext _ _ _ (fun _ => k0)), ksum_zero; [ring|].
    intros k Hk. destruct (Nat.eqb_spec k j); [lia|ring].
  - rewrite IH by lia. ring.
Qed.

(* A predicate that holds of 0 and 1 and is preserved by the field operations holds of every
   literal: instances are the constants of a derivation, the real elements, the elements of
   degree 0. *)
Record subfield (P : A -> Prop) : Prop := {
  sf_0 : P k0; sf_1 : P k1;
  sf_add : forall x y, P x -> P y -> P (x + y);
  sf_mul : forall x y, P x -> P y -> P (x * y);
  sf_opp : forall x, P x -> P (- x);
  sf_div : forall x y, P x -> P y -> P (x / y);
}.

Section Closure.
Variable P : A -> Prop.
Hypothesis HP : subfield P.

Lemma sf_of_pos p : P (of_pos p).
Proof.
  pose proof (sf_1 _ HP). induction p; cbn [of_pos];
    repeat first [assumption | apply (sf_add _ HP) | apply (sf_mul _ HP)].
Qed.
Lemma sf_of_Z z : P (of_Z z).
Proof. destruct z; cbn [of_Z]; [apply (sf_0 _ HP) | | apply (sf_opp _ HP)]; apply sf_of_pos. Qed.
Lemma sf_kdyad m e : P (kdyad m e).
Proof.
  destruct e; cbn [kdyad]; [|apply (sf_mul _ HP)|apply (sf_div _ HP)];
    first [apply sf_of_Z | apply sf_of_pos].
Qed.
Lemma sf_perm_sign c : P (perm_sign c).
Proof.
  unfold perm_sign. destruct (has_dup c); [apply (sf_0 _ HP)|].
  destruct (Nat.even _); [|apply (sf_opp _ HP)]; apply (sf_1 _ HP).
Qed.
Lemma sf_ksum n f : (forall k, k < n -> P (f k)) -> P (ksum n f).
Proof. induction n; intros H; cbn [ksum]; [apply (sf_0 _ HP)|]. apply (sf_add _ HP); auto. Qed.
Lemma sf_kpown x n : P x -> P (kpown x n).
Proof. intros Hx. induction n; cbn [kpown]; [apply (sf_1 _ HP)|apply (sf_mul _ HP)]; auto. Qed.
End Closure.

Lemma dconst_subfield (d : A -> A) : Derivation d -> subfield (fun x => d x = k0).
Proof.
  intros H. split; intros.
  - apply d_zero; auto.
  - apply d_one; auto.
  - rewrite (d_add _ d H), H0, H1. ring.
  - rewrite (d_mul _ d H), H0, H1. ring.
  - rewrite d_opp, H0 by auto. ring.
  - rewrite (d_div _ d H), H0, H1, !div_def. ring.
Qed.

Lemma d_kpown (d : A -> A) x n :
  Derivation d -> d (kpown x (S n)) = of_nat (S n) * kpown x n * d x.
Proof.
  intros H. induction n as [|n IH].
  - cbn. rewrite (d_mul _ d H), (d_one _ d H). ring.
  - change (kpown x (S (S n))) with (x * kpown x (S n)). rewrite (d_mul _ d H), IH, (of_nat_succ (S n)).
    cbn [kpown]. ring.
Qed.

Lemma ksum_shape_ext sh (f g : list nat -> A) : (forall c, f c = g c) -> ksum_shape sh f = ksum_shape sh g.
Proof.
  revert f g; induction sh as [|d sh IH]; intros f g H; cbn [ksum_shape]; [apply H|].
  apply ksum_ext; intros k _. apply IH. intros c. apply H.
Qed.

Lemma det_ext n (M N : nat -> nat -> A) : (forall i j, M i j = N i j) -> det n M = det n N.
Proof.
  revert M N; induction n as [|n IH]; intros M N H; cbn [det]; [reflexivity|].
  apply ksum_ext; intros j _. rewrite H. f_equal. apply IH. intros r c. apply H.
Qed.
Lemma cofactor_ext n (M N : nat -> nat -> A) i j :
  (forall i j, M i j = N i j) -> cofactor n M i j = cofactor n N i j.
Proof. intros H. destruct n; cbn [cofactor]; [reflexivity|]. f_equal. apply det_ext. intros r c. apply H. Qed.
Lemma gram_ext m (M N : nat -> nat -> A) i j : (forall i j, M i j = N i j) -> gram m M i j = gram m N i j.
Proof. intros H. unfold gram. apply ksum_ext; intros k _. rewrite !H. reflexivity. Qed.

End AlgFacts.

Arguments delta {_}. Arguments subfield {_}.

Lemma split_last_app (c : list nat) j : split_last (c ++ [j]) = (c, j).
Proof. unfold split_last. rewrite removelast_last, last_last. reflexivity. Qed.

(* the exponent of [Power] is read as a natural power only when it is an integer literal *)
Definition lit_int (b : expr) : option Z := match b with IntV z => Some z | _ => None end.

Lemma lit_int_Some b z : lit_int b = Some z -> b = IntV z.
Proof. destruct b; try discriminate. intros [= ->]. reflexivity. Qed.

(* a match on the exponent of [Power], as [den] and the rule tables write it, seen through [lit_int] *)
Lemma lit_int_case {T} (b : expr) (X : T) (Y : positive -> T) (Z : T) :
  match b with IntV Z0 => X | IntV (Zpos p) => Y p | _ => Z end =
  match lit_int b with Some Z0 => X | Some (Zpos p) => Y p | _ => Z end.
Proof. destruct b; reflexivity. Qed.

(* the expressions whose value depends on neither the environment nor the valuation *)
Definition is_const (e : expr) : bool :=
  match e with
  | Zero _ _ | IntV _ | RealV _ _ | CplxV _ _ _ _ | RatV _ _ | Identity _ | PermSym _ => true
  | _ => false
  end.

Section DenFacts.
Variable A : ualg.
Variable env : side -> nat -> nat -> list nat -> A.
Variable D DX : nat -> A -> A.
Variable ki : A.
Notation DEN := (den env D DX ki).
Notation DENC := (denc env D DX ki).
Add Field AfDenFacts : (kfield A).
Open Scope K_scope.

Definition pow_z (o : option Z) (x y : A) : A :=
  match o with
  | Some Z0 => k1
  | Some (Zpos p) => kpown x (Pos.to_nat p)
  | _ => kpow x y
  end.

Lemma den_Power s rho a b c :
  DEN s rho (Power a b) c = pow_z (lit_int b) (DEN s rho a []) (DEN s rho b []).
Proof. destruct b; reflexivity. Qed.

(* where kpow agrees with repeated multiplication on literal natural exponents, the two readings of
   [Power] agree *)
Lemma pow_z_kpow b s rho (x : A) :
  (forall y : A, kpow y (of_Z 0) = k1) ->
  (forall (y : A) p, kpow y (of_Z (Zpos p)) = kpown y (Pos.to_nat p)) ->
  pow_z (lit_int b) x (DEN s rho b []) = kpow x (DEN s rho b []).
Proof. intros H0 Hp. destruct b; try reflexivity. destruct z; cbn [lit_int pow_z den]; auto. Qed.

Lemma den_ListTensor s rho es c :
  DEN s rho (ListTensor es) c =
  match c with
  | [] => k0
  | k :: c' => match nth_error es k with Some e => DEN s rho e c' | None => k0 end
  end.
Proof.
  destruct c as [|k c']; [reflexivity|]. cbn [den].
  revert k; induction es as [|e es IH]; intros [|k]; try reflexivity. apply IH.
Qed.

Lemma den_Grad_snoc s rho a g c j : DEN s rho (Grad a g) (c ++ [j]) = D j (DEN s rho a c).
Proof. cbn [den]. rewrite split_last_app. reflexivity. Qed.

Lemma pow_z_nat n (x y : A) : pow_z (Some (Z.of_nat n)) x y = kpown x n.
Proof. destruct n; cbn [Z.of_nat pow_z]; [reflexivity|]. rewrite SuccNat2Pos.id_succ. reflexivity. Qed.

(* the power rule for a positive integer literal exponent, as the rule tables write it:
   d(x^p) = dx * p * x^(p-1), the last factor being the value of [Power a (IntV (p-1))] *)
Lemma d_kpown_pos (d : A -> A) (x y : A) p : Derivation d ->
  d (kpown x (Pos.to_nat p)) = d x * of_pos p * pow_z (Some (Z.pred (Zpos p))) x y.
Proof.
  intros H. destruct (Pos2Nat.is_succ p) as [n Hn].
  assert (E : Z.pred (Zpos p) = Z.of_nat n) by lia.
  rewrite E, pow_z_nat, Hn, d_kpown by exact H.
  unfold of_nat. rewrite <- Hn, positive_nat_Z. cbn [of_Z]. ring.
Qed.

(* every component of a literal lies in each subfield that contains the imaginary unit; with
   [dconst_subfield]: literals are constants of every derivation that kills [ki] *)
Lemma den_const_sf (P : A -> Prop) : subfield P -> P ki ->
  forall e, is_const e = true -> forall s rho c, P (DEN s rho e c).
Proof.
  intros HP Hi e He s rho c. destruct e; try discriminate He; cbn [den].
  - apply (sf_0 _ _ HP).
  - apply (sf_of_Z _ _ HP).
  - apply (sf_kdyad _ _ HP).
  - apply (sf_add _ _ HP); [|apply (sf_mul _ _ HP); [exact Hi|]]; apply (sf_kdyad _ _ HP).
  - apply (sf_div _ _ HP); [apply (sf_of_Z _ _ HP) | apply (sf_of_pos _ _ HP)].
  - destruct c as [|i [|j [|? ?]]]; try apply (sf_0 _ _ HP).
    destruct (Nat.eqb i j); [apply (sf_1 _ _ HP) | apply (sf_0 _ _ HP)].
  - apply (sf_perm_sign _ _ HP).
Qed.

(* [den] and [denc] at the constructors whose clause only combines the values of the operands.
   Proofs rewrite with these instead of computing with [cbn [den]], which unfolds the mutual
   fixpoint, has to fold it back, and leaves [denc] as a bare [fix]. *)
Section DenOperators.
Variables (s : side) (rho : nat -> nat) (c : list nat).

Lemma den_Sum a b : DEN s rho (Sum a b) c = DEN s rho a c + DEN s rho b c.
Proof. reflexivity. Qed.
Lemma den_Product a b : DEN s rho (Product a b) c = DEN s rho a [] * DEN s rho b [].
Proof. reflexivity. Qed.
Lemma den_Division a b : DEN s rho (Division a b) c = DEN s rho a [] / DEN s rho b [].
Proof. reflexivity. Qed.
Lemma den_Abs a : DEN s rho (Abs a) c = kabs (DEN s rho a c).
Proof. reflexivity. Qed.
Lemma den_Conj a : DEN s rho (Conj a) c = kconj (DEN s rho a c).
Proof. reflexivity. Qed.
Lemma den_Real a : DEN s rho (Real a) c = kre (DEN s rho a c).
Proof. reflexivity. Qed.
Lemma den_Imag a : DEN s rho (Imag a) c = kim (DEN s rho a c).
Proof. reflexivity. Qed.
Lemma den_Indexed a mi : DEN s rho (Indexed a mi) c = DEN s rho a (map (idxval rho) mi).
Proof. reflexivity. Qed.
Lemma den_IndexSum a i d : DEN s rho (IndexSum a i d) c = ksum d (fun k => DEN s (upd rho i k) a c).
Proof. reflexivity. Qed.
Lemma den_ComponentTensor a ix : DEN s rho (ComponentTensor a ix) c = DEN s (upds rho ix c) a [].
Proof. reflexivity. Qed.
Lemma den_Conditional cn t f :
  DEN s rho (Conditional cn t f) c = kcond (DENC s rho cn) (DEN s rho t c) (DEN s rho f c).
Proof. reflexivity. Qed.
Lemma den_MinV a b : DEN s rho (MinV a b) c = kmin (DEN s rho a []) (DEN s rho b []).
Proof. reflexivity. Qed.
Lemma den_MaxV a b : DEN s rho (MaxV a b) c = kmax (DEN s rho a []) (DEN s rho b []).
Proof. reflexivity. Qed.
Lemma den_Math f a : DEN s rho (Math f a) c = kfn f (DEN s rho a []).
Proof. reflexivity. Qed.
Lemma den_Atan2 a b : DEN s rho (Atan2 a b) c = katan2 (DEN s rho a []) (DEN s rho b []).
Proof. reflexivity. Qed.
Lemma den_Grad a g : DEN s rho (Grad a g) c = D (snd (split_last c)) (DEN s rho a (fst (split_last c))).
Proof. reflexivity. Qed.
Lemma den_RefGrad a g : DEN s rho (RefGrad a g) c = DX (snd (split_last c)) (DEN s rho a (fst (split_last c))).
Proof. reflexivity. Qed.
Lemma den_Outer a b :
  DEN s rho (Outer a b) c =
  kconj (DEN s rho a (firstn (length (shape a)) c)) * DEN s rho b (skipn (length (shape a)) c).
Proof. reflexivity. Qed.
Lemma den_Inner a b :
  DEN s rho (Inner a b) c = ksum_shape (shape a) (fun I => DEN s rho a I * kconj (DEN s rho b I)).
Proof. reflexivity. Qed.
Lemma den_Dot a b :
  DEN s rho (Dot a b) c =
  ksum (last (shape a) 0)
       (fun k => DEN s rho a (firstn (length (shape a) - 1) c ++ [k]) * DEN s rho b (k :: skipn (length (shape a) - 1) c)).
Proof. reflexivity. Qed.
Lemma denc_Cmp op a b : DENC s rho (Cmp op a b) = bcmp op (DEN s rho a []) (DEN s rho b []).
Proof. reflexivity. Qed.
Lemma denc_And a b : DENC s rho (AndC a b) = band (DENC s rho a) (DENC s rho b).
Proof. reflexivity. Qed.
Lemma denc_Or a b : DENC s rho (OrC a b) = bor (DENC s rho a) (DENC s rho b).
Proof. reflexivity. Qed.
Lemma denc_Not a : DENC s rho (NotC a) = bnot (DENC s rho a).
Proof. reflexivity. Qed.
End DenOperators.

End DenFacts.

Arguments pow_z {_}.

(* [expr] is nested through [list], so proofs about all sub-expressions go by induction on the size *)
Fixpoint size_list (l : list expr) : nat :=
  match l with [] => 0 | e :: t => size e + size_list t end.

Lemma size_ListTensor es : size (ListTensor es) = S (size_list es).
Proof. reflexivity. Qed.
Lemma size_pos e : 0 < size e.
Proof. destruct e; cbn [size]; lia. Qed.
Lemma csize_pos c : 0 < csize c.
Proof. destruct c; cbn [csize]; lia. Qed.
Lemma size_list_In x es : In x es -> size x <= size_list es.
Proof.
  induction es as [|e t IH]; intros H; [destruct H|]. cbn [size_list].
  destruct H as [<-|H]; [lia|]. apply IH in H. lia.
Qed.
Lemma size_In_ListTensor x es : In x es -> size x < size (ListTensor es).
Proof. intros H. apply size_list_In in H. rewrite size_ListTensor. lia. Qed.

Lemma size_ind2 (P : expr -> Prop) (Q : cond -> Prop) :
  (forall e, (forall x, size x < size e -> P x) -> (forall c, csize c < size e -> Q c) -> P e) ->
  (forall c, (forall x, size x < csize c -> P x) -> (forall d, csize d < csize c -> Q d) -> Q c) ->
  (forall e, P e) /\ (forall c, Q c).
Proof.
  intros HP HQ.
  assert (H : forall n, (forall e, size e < n -> P e) /\ (forall c, csize c < n -> Q c)).
  { induction n as [|n [IHe IHc]]; [split; intros; lia|].
    split; [intros e He; apply HP | intros c Hc; apply HQ]; intros; first [apply IHe | apply IHc]; lia. }
  split; [intros e; apply (proj1 (H (S (size e)))) | intros c; apply (proj2 (H (S (csize c))))]; lia.
Qed.

Lemma size_ind (P : expr -> Prop) :
  (forall e, (forall x, size x < size e -> P x) -> P e) -> forall e, P e.
Proof. intros H. apply (size_ind2 P (fun _ => True)); auto. Qed.
