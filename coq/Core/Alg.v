(* The "UFL algebra": the abstract structure in which UFL expressions take values.
   Everything is a record field or a predicate over it: nothing is postulated, every
   theorem of the development quantifies over an arbitrary [ualg]. *)
Require Export ZArith Ring Field List Lia Bool.
Export ListNotations.

Inductive mathfn := FSqrt | FExp | FLn | FCos | FSin | FTan | FCosh | FSinh | FTanh
                  | FAcos | FAsin | FAtan | FErf.
Inductive cmpop := CEQ | CNE | CLT | CGT | CLE | CGE.
Inductive bkind := BJ | BY | BI | BK.

(* Props/C02_tac.v reads the operations off a goal with positional patterns [Build_ualg _ ?z0 ?z1 ...]:
   they follow the order of the fields below. *)
Record ualg := {
  K :> Type;
  k0 : K; k1 : K;
  kadd : K -> K -> K; kmul : K -> K -> K; ksub : K -> K -> K; kopp : K -> K;
  kdiv : K -> K -> K; kinv : K -> K;
  kfield : field_theory k0 k1 kadd kmul ksub kopp kdiv kinv (@eq K);
  (* complex structure *)
  kconj : K -> K; kre : K -> K; kim : K -> K; kabs : K -> K;
  (* function symbols *)
  kfn : mathfn -> K -> K;
  kpow : K -> K -> K;
  katan2 : K -> K -> K;
  kbessel : bkind -> K -> K -> K;
  (* conditions ("regions") *)
  B : Type;
  bcmp : cmpop -> K -> K -> B; band : B -> B -> B; bor : B -> B -> B; bnot : B -> B;
  kcond : B -> K -> K -> K;
  kmin : K -> K -> K; kmax : K -> K -> K;
}.

Arguments k0 {_}. Arguments k1 {_}. Arguments kadd {_}. Arguments kmul {_}. Arguments ksub {_}.
Arguments kopp {_}. Arguments kdiv {_}. Arguments kinv {_}. Arguments kconj {_}. Arguments kre {_}.
Arguments kim {_}. Arguments kabs {_}. Arguments kfn {_}. Arguments kpow {_}. Arguments katan2 {_}.
Arguments kbessel {_}. Arguments bcmp {_}. Arguments band {_}. Arguments bor {_}. Arguments bnot {_}.
Arguments kcond {_}. Arguments kmin {_}. Arguments kmax {_}.

Declare Scope K_scope.
Delimit Scope K_scope with K.
Bind Scope K_scope with K.
Notation "x + y" := (kadd x y) : K_scope.
Notation "x * y" := (kmul x y) : K_scope.
Notation "x - y" := (ksub x y) : K_scope.
Notation "- x" := (kopp x) : K_scope.
Notation "x / y" := (kdiv x y) : K_scope.

Section Basics.
Variable A : ualg.
Add Field Af0 : (kfield A).
Open Scope K_scope.

(* integer literals, binary so that large literals stay small terms *)
Fixpoint of_pos (p : positive) : A :=
  match p with
  | xH => k1
  | xO q => (k1 + k1) * of_pos q
  | xI q => k1 + (k1 + k1) * of_pos q
  end.
Definition of_Z (z : Z) : A :=
  match z with Z0 => k0 | Zpos p => of_pos p | Zneg p => - of_pos p end.
Definition of_nat (n : nat) : A := of_Z (Z.of_nat n).

(* sum_{k<n} f k *)
Fixpoint ksum (n : nat) (f : nat -> A) : A :=
  match n with O => k0 | S m => ksum m f + f m end.

(* natural power *)
Fixpoint kpown (x : A) (n : nat) : A :=
  match n with O => k1 | S m => x * kpown x m end.

Lemma of_pos_succ p : of_pos (Pos.succ p) = of_pos p + k1.
Proof. induction p as [p IH|p|]; cbn [of_pos Pos.succ]; [rewrite IH|..]; ring. Qed.

Lemma of_pos_add p q : of_pos (p + q) = of_pos p + of_pos q.
Proof.
  revert q; induction p as [p IH|p IH|]; intros [q|q|]; cbn [of_pos Pos.add];
    rewrite ?Pos.add_carry_spec, ?of_pos_succ, ?IH; ring.
Qed.

Lemma ksum_ext n f g : (forall k, k < n -> f k = g k) -> ksum n f = ksum n g.
Proof. induction n as [|n IH]; intros H; cbn; [reflexivity|]. rewrite IH, H; auto. Qed.

Lemma ksum_add n f g : ksum n (fun k => f k + g k) = ksum n f + ksum n g.
Proof. induction n as [|n IH]; cbn; [ring|]. rewrite IH. ring. Qed.

Lemma ksum_scal n c f : ksum n (fun k => c * f k) = c * ksum n f.
Proof. induction n as [|n IH]; cbn; [ring|]. rewrite IH. ring. Qed.

Lemma ksum_zero n : ksum n (fun _ => k0) = (k0 : A).
Proof. induction n as [|n IH]; cbn; [reflexivity|]. rewrite IH. ring. Qed.

Lemma ksum_swap n m (f : nat -> nat -> A) :
  ksum n (fun i => ksum m (fun j => f i j)) = ksum m (fun j => ksum n (fun i => f i j)).
Proof.
  induction n as [|n IH]; cbn.
  - rewrite ksum_zero. reflexivity.
  - rewrite IH, <- ksum_add. reflexivity.
Qed.

(* a derivation of the algebra: additive, Leibniz and quotient rule; it commutes with conj, re, im and
   with the selection by a condition.  Chain rules for the function symbols ([kfn], [kpow], [kabs], ...)
   are not part of it: a property that needs them states them as hypotheses. *)
Record Derivation (d : A -> A) : Prop := {
  d_add : forall x y, d (x + y) = d x + d y;
  d_mul : forall x y, d (x * y) = d x * y + x * d y;
  d_div : forall x y, d (x / y) = (d x - (x / y) * d y) / y;
  d_conj : forall x, d (kconj x) = kconj (d x);
  d_re : forall x, d (kre x) = kre (d x);
  d_im : forall x, d (kim x) = kim (d x);
  d_cond : forall b x y, d (kcond b x y) = kcond b (d x) (d y);
}.

Lemma self_double (x : A) : x = x + x -> x = k0.
Proof. intros E. transitivity (x + x - x); [ring|]. rewrite <- E. ring. Qed.
Lemma d_zero d : Derivation d -> d k0 = k0.
Proof. intros H. apply self_double. rewrite <- (d_add d H). f_equal. ring. Qed.
Lemma d_one d : Derivation d -> d k1 = k0.
Proof. intros H. apply self_double. pose proof (d_mul d H k1 k1) as E.
  replace (k1 * k1) with (k1:A) in E by ring. rewrite E at 1. ring. Qed.
Lemma d_opp d x : Derivation d -> d (- x) = - d x.
Proof. intros H. pose proof (d_add d H x (- x)) as E. replace (x + - x) with (k0:A) in E by ring.
  rewrite (d_zero d H) in E. transitivity (k0 - d x); [rewrite E|]; ring. Qed.
Lemma d_sub d x y : Derivation d -> d (x - y) = d x - d y.
Proof. intros H. replace (x - y) with (x + - y) by ring. rewrite (d_add d H), (d_opp d _ H). ring. Qed.
Lemma d_of_pos d p : Derivation d -> d (of_pos p) = k0.
Proof. intros H. induction p as [p IH|p IH|]; cbn [of_pos];
  repeat first [rewrite (d_add d H) | rewrite (d_mul d H) | rewrite IH | rewrite (d_one d H)]; ring. Qed.
Lemma d_of_Z d z : Derivation d -> d (of_Z z) = k0.
Proof. intros H. destruct z; cbn [of_Z]; rewrite ?(d_opp d _ H), ?(d_of_pos d _ H), ?(d_zero d H); ring. Qed.
Lemma d_ksum d n f : Derivation d -> d (ksum n f) = ksum n (fun k => d (f k)).
Proof. intros H. induction n as [|n IH]; cbn; [apply d_zero; auto|]. rewrite (d_add d H), IH. reflexivity. Qed.

End Basics.

Arguments of_pos {_}. Arguments of_Z {_}. Arguments of_nat {_}. Arguments ksum {_}. Arguments kpown {_}.
Arguments Derivation {_}.
