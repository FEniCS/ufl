(* Tactics of the generated obligations: imported by their preamble (coqgen.HEADER) and by the tactic
   files Props/*_tac.v, through which the hand-written C07 files use them too. *)
Require Export UFLV.Core.Den.

(* Side conditions of [field]: each is [X <> 0]; it is discharged from a hypothesis [H : Y <> 0]
   with Y = X by [ring], or from characteristic zero (X a numeral). *)
Ltac nz_from_hyps :=
  match goal with
  | H : ?Y <> ?z |- ?X <> ?z =>
      let E := fresh "E" in
      intro E; apply H; (transitivity X; [ring | exact E])
  end.

Ltac nz_char0_p char0 p :=
  match goal with
  | |- ?X <> _ =>
      let E := fresh "E" in
      intro E; apply (char0 p); cbn; (transitivity X; [ring | exact E])
  end.

(* The numeral is not read off X: a fixed list is tried in this order - 2, 3, 4, 6 (what the literals
   1/2 and 1/3 give) first, then 1, 5, the other products of 2s and 3s up to 64, 7, 10.  A numeral outside
   the list is not discharged (Props/C02_tac.v [nz_num] computes the numeral from X instead). *)
Ltac nz_char0 char0 :=
  first [ nz_char0_p char0 2%positive | nz_char0_p char0 3%positive | nz_char0_p char0 4%positive
        | nz_char0_p char0 6%positive | nz_char0_p char0 1%positive | nz_char0_p char0 5%positive
        | nz_char0_p char0 8%positive | nz_char0_p char0 9%positive | nz_char0_p char0 12%positive
        | nz_char0_p char0 16%positive | nz_char0_p char0 18%positive | nz_char0_p char0 24%positive
        | nz_char0_p char0 27%positive | nz_char0_p char0 32%positive | nz_char0_p char0 36%positive
        | nz_char0_p char0 48%positive | nz_char0_p char0 64%positive | nz_char0_p char0 7%positive
        | nz_char0_p char0 10%positive ].

Ltac nz_solve char0 :=
  repeat match goal with |- _ /\ _ => split end;
  first [ assumption | nz_from_hyps | nz_char0 char0 ].

(* Normalise [den] applications to polynomial expressions over the algebra's operations.  The
   algebra's operations are Section variables in the generated files, so full evaluation stops at
   them. *)
Ltac norm_goal :=
  match goal with
  | |- ?L = ?R =>
      let l := eval vm_compute in L in
      let r := eval vm_compute in R in
      change (l = r)
  end.
Ltac norm_hyp H :=
  match type of H with
  | ?L <> ?R =>
      let l := eval vm_compute in L in
      let r := eval vm_compute in R in
      change (l <> r) in H
  | ?L = ?R =>
      let l := eval vm_compute in L in
      let r := eval vm_compute in R in
      change (l = r) in H
  end.

(* [ring] treats applications of uninterpreted symbols as atoms, so [g X] and [g Y] with X and Y equal
   only up to the field laws are different atoms.  [unify_arg g tac] finds two such occurrences in the
   goal and replaces [g X] by [g Y], proving X = Y by [tac]; [g] may be a partial application
   (e.g. [fn f], [Dx j]).  [unify_args] does this for the symbols of the algebra the traced
   obligations mention. *)
Ltac unify_arg g tac :=
  match goal with
  | |- context [g ?X] =>
      match goal with
      | |- context [g ?Y] =>
          lazymatch X with Y => fail | _ => idtac end;
          replace (g X) with (g Y) by (f_equal; tac)
      end
  end.
Ltac unify_args fn abs conj Dx DX tac :=
  first [ match goal with |- context [fn ?f _] => unify_arg (fn f) tac end
        | unify_arg abs tac
        | unify_arg conj tac
        | match goal with |- context [Dx ?j _] => unify_arg (Dx j) tac end
        | match goal with |- context [DX ?j _] => unify_arg (DX j) tac end ].
