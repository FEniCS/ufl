(* Denotation of UFL expressions in an arbitrary UFL algebra.
   den env D DX ki side rho e c  =  the value of component c of e, where
     env  : side -> kind -> id -> component -> K      values of terminals
     D j  : the j-th physical spatial derivative (any function K -> K; theorems that need the
            Leibniz rule assume [Derivation (D j)])
     DX j : the j-th reference derivative
     ki   : the imaginary unit used by complex literals
     side : restriction context (None outside any restriction)
     rho  : valuation of free indices *)
Require Export UFLV.Core.Syntax.

Section Den.
Variable A : ualg.
Open Scope K_scope.

Definition side := option bool.
Variable env : side -> nat -> nat -> list nat -> A.
Variable D DX : nat -> A -> A.
Variable ki : A.           (* the imaginary unit used by complex literals *)

Definition upd (rho : nat -> nat) (i k : nat) : nat -> nat :=
  fun j => if Nat.eqb j i then k else rho j.
Fixpoint upds (rho : nat -> nat) (ix : list (nat * nat)) (c : list nat) : nat -> nat :=
  match ix, c with
  | (i, _) :: ix', k :: c' => upds (upd rho i k) ix' c'
  | _, _ => rho
  end.
Definition idxval (rho : nat -> nat) (i : idx) : nat :=
  match i with Fixed n => n | Free j => rho j end.

Definition kdyad (m e : Z) : A :=
  match e with
  | Z0 => of_Z m
  | Zpos p => of_Z m * of_pos (2 ^ p)
  | Zneg p => of_Z m / of_pos (2 ^ p)
  end.

(* sign of the sequence c as a permutation of 0..n-1: 0 if an entry repeats *)
Fixpoint inversions_of (x : nat) (l : list nat) : nat :=
  match l with [] => 0 | y :: t => ((if Nat.ltb y x then 1 else 0) + inversions_of x t)%nat end.
Fixpoint has_dup (l : list nat) : bool :=
  match l with [] => false | x :: t => existsb (Nat.eqb x) t || has_dup t end.
Fixpoint inversions (l : list nat) : nat :=
  match l with [] => 0 | x :: t => (inversions_of x t + inversions t)%nat end.
Definition perm_sign (c : list nat) : A :=
  if has_dup c then k0 else if Nat.even (inversions c) then k1 else - k1.

Definition split_last (c : list nat) : list nat * nat := (removelast c, last c 0).

(* sum over all multi-components of a shape *)
Fixpoint ksum_shape (sh : list nat) (f : list nat -> A) : A :=
  match sh with
  | [] => f []
  | d :: s => ksum d (fun k => ksum_shape s (fun c => f (k :: c)))
  end.

(* determinant by expansion along the first row; minors by index skipping *)
Definition skip (i r : nat) : nat := if Nat.ltb r i then r else S r.
Definition minor (M : nat -> nat -> A) (i j : nat) : nat -> nat -> A :=
  fun r c => M (skip i r) (skip j c).
Definition sgn (n : nat) : A := if Nat.even n then k1 else - k1.
Fixpoint det (n : nat) (M : nat -> nat -> A) : A :=
  match n with
  | O => k1
  | S m => ksum (S m) (fun j => sgn j * M 0 j * det m (minor M 0 j))
  end.
Definition cofactor (n : nat) (M : nat -> nat -> A) (i j : nat) : A :=
  match n with O => k1 | S m => sgn (i + j)%nat * det m (minor M i j) end.
Definition adjugate (n : nat) (M : nat -> nat -> A) (i j : nat) : A := cofactor n M j i.
(* Gram matrix M^T M of an m x n matrix *)
Definition gram (m : nat) (M : nat -> nat -> A) : nat -> nat -> A :=
  fun i j => ksum m (fun k => M k i * M k j).

Definition matrix_of (f : list nat -> A) : nat -> nat -> A := fun i j => f [i; j].

Fixpoint den (s : side) (rho : nat -> nat) (e : expr) (c : list nat) {struct e} : A :=
  match e with
  | Zero _ _ => k0
  | IntV z => of_Z z
  | RealV m e => kdyad m e
  | CplxV rm re im ie => kdyad rm re + ki * kdyad im ie
  | RatV p q => of_Z p / of_pos q
  | Identity _ => match c with [i; j] => if Nat.eqb i j then k1 else k0 | _ => k0 end
  | PermSym _ => perm_sign c
  | Term k id _ => env s k id c
  | Sum a b => den s rho a c + den s rho b c
  | Product a b => den s rho a [] * den s rho b []
  | Division a b => den s rho a [] / den s rho b []
  | Power a b =>
      match b with
      | IntV Z0 => k1
      | IntV (Zpos p) => kpown (den s rho a []) (Pos.to_nat p)
      | _ => kpow (den s rho a []) (den s rho b [])
      end
  | Abs a => kabs (den s rho a c)
  | Conj a => kconj (den s rho a c)
  | Real a => kre (den s rho a c)
  | Imag a => kim (den s rho a c)
  | Indexed a mi => den s rho a (map (idxval rho) mi)
  | IndexSum a i d => ksum d (fun k => den s (upd rho i k) a c)
  | ComponentTensor a ix => den s (upds rho ix c) a []
  | ListTensor es =>
      match c with
      | [] => k0
      | k :: c' =>
          (fix nth_den (l : list expr) (n : nat) {struct l} : A :=
             match l, n with
             | [], _ => k0
             | e0 :: _, O => den s rho e0 c'
             | _ :: t, S n' => nth_den t n'
             end) es k
      end
  | Conditional cnd t f => kcond (denc s rho cnd) (den s rho t c) (den s rho f c)
  | MinV a b => kmin (den s rho a []) (den s rho b [])
  | MaxV a b => kmax (den s rho a []) (den s rho b [])
  | Math f a => kfn f (den s rho a [])
  | Atan2 a b => katan2 (den s rho a []) (den s rho b [])
  | Bessel k nu a => kbessel k (den s rho nu []) (den s rho a [])
  | Vari a _ => den s rho a c
  | Restricted p a => den (Some p) rho a c
  | Grad a _ => let (c', j) := split_last c in D j (den s rho a c')
  | RefGrad a _ => let (c', j) := split_last c in DX j (den s rho a c')
  | Div a g => ksum g (fun j => D j (den s rho a (c ++ [j])))
  | NablaGrad a _ => match c with j :: c' => D j (den s rho a c') | [] => k0 end
  | NablaDiv a g => ksum g (fun j => D j (den s rho a (j :: c)))
  | Curl a =>
      match shape a, c with
      | [], [i] =>          (* 2D curl of a scalar: (df/dy, -df/dx) *)
          if Nat.eqb i 0 then D 1 (den s rho a []) else - D 0 (den s rho a [])
      | [2], [] => D 0 (den s rho a [1]) - D 1 (den s rho a [0])
      | _, [i] => D ((i + 1) mod 3)%nat (den s rho a [((i + 2) mod 3)%nat])
                  - D ((i + 2) mod 3)%nat (den s rho a [((i + 1) mod 3)%nat])
      | _, _ => k0
      end
  | RefValue a _ => den s rho a c
  | Transposed a => den s rho a (rev c)
  | Outer a b =>
      let ra := length (shape a) in
      kconj (den s rho a (firstn ra c)) * den s rho b (skipn ra c)
  | Inner a b => ksum_shape (shape a) (fun I => den s rho a I * kconj (den s rho b I))
  | Dot a b =>
      let ra := (length (shape a) - 1)%nat in
      ksum (last (shape a) 0)
           (fun k => den s rho a (firstn ra c ++ [k]) * den s rho b (k :: skipn ra c))
  | Cross a b =>
      match c with
      | [i] => den s rho a [((i + 1) mod 3)%nat] * den s rho b [((i + 2) mod 3)%nat]
               - den s rho a [((i + 2) mod 3)%nat] * den s rho b [((i + 1) mod 3)%nat]
      | _ => k0
      end
  | Perp a => match c with
              | [0] => - den s rho a [1]
              | [1] => den s rho a [0]
              | _ => k0
              end
  | Trace a => ksum (hd 0 (shape a)) (fun i => den s rho a [i; i])
  | Determinant a =>
      match shape a with
      | [] => den s rho a []
      | [m; n] => if Nat.eqb m n then det n (matrix_of (den s rho a))
                  else kfn FSqrt (det n (gram m (matrix_of (den s rho a))))
      | _ => k0
      end
  | Inverse a =>
      match shape a, c with
      | [], _ => k1 / den s rho a []
      | [m; n], [i; j] =>
          if Nat.eqb m n then adjugate n (matrix_of (den s rho a)) i j / det n (matrix_of (den s rho a))
          else (* pseudo-inverse (A^T A)^-1 A^T *)
            let G := gram m (matrix_of (den s rho a)) in
            ksum n (fun k => adjugate n G i k / det n G * den s rho a [j; k])
      | _, _ => k0
      end
  | Cofactor a =>
      match shape a, c with
      | [_; n], [i; j] => cofactor n (matrix_of (den s rho a)) i j
      | _, _ => k0
      end
  | Deviatoric a =>
      match shape a, c with
      | [_; n], [i; j] =>
          den s rho a [i; j]
          - (if Nat.eqb i j then ksum n (fun k => den s rho a [k; k]) / of_nat n else k0)
      | _, _ => k0
      end
  | Skew a => match c with
              | [i; j] => (den s rho a [i; j] - den s rho a [j; i]) / (k1 + k1)
              | _ => k0
              end
  | Sym a => match c with
             | [i; j] => (den s rho a [i; j] + den s rho a [j; i]) / (k1 + k1)
             | _ => k0
             end
  end
with denc (s : side) (rho : nat -> nat) (cn : cond) {struct cn} : B A :=
  match cn with
  | Cmp op a b => bcmp op (den s rho a []) (den s rho b [])
  | AndC a b => band (denc s rho a) (denc s rho b)
  | OrC a b => bor (denc s rho a) (denc s rho b)
  | NotC a => bnot (denc s rho a)
  end.

End Den.

Arguments den {_}. Arguments denc {_}. Arguments upd _ _ _ _ /. Arguments idxval _ _ /.
Arguments det {_}. Arguments adjugate {_}. Arguments cofactor {_}. Arguments gram {_}.
Arguments minor {_}. Arguments matrix_of {_}. Arguments ksum_shape {_}. Arguments kdyad {_}.
Arguments perm_sign {_}. Arguments sgn {_}.
