(* C15 - Integral grouping preserves what is integrated on each subdomain.

   Hand-written, unbounded part.  Integrands are elements of an abstract commutative monoid
   (M, add, zero): only their sums matter.  An integral is
       (domain id, integral type id, subdomain id, coordinate-derivative class, metadata, integrand)
   and the functions below are total Gallina models of

     ufl/algorithms/domain_analysis.py :
        group_integrals_by_domain_and_type      -> groups dt_key
        rearrange_integrals_by_single_subdomains -> rearrange
        (grouping by coordinate derivative hash)  -> groups icd            in process_sid
        accumulate_integrands_with_same_metadata -> accumulate  (keyed by  canon (metadata))
        the final merge by common integrand      -> final_merge
        group_form_integrals                     -> group_form_integrals
        build_integral_data                      -> build_integral_data

   Python's dict-of-lists (insertion ordered keys, each list in input order) is [groups].
   [canon] stands for  hash o canonicalize_metadata  and is a Section variable: the sum theorem
   C15_group_sums holds for EVERY canon; the no-merge theorem needs canon to be injective on the
   metadata that occur in the form, and is refuted (C15_no_merge_refuted) for a canon that drops the
   last digit of a number, as any rendering with a fixed number of digits does (str(ndarray): 8). *)
Require Import List Arith Bool Permutation.
Import ListNotations.
Set Implicit Arguments.


Definition prod_dec (A B : Type) (da : forall a b : A, {a = b} + {a <> b})
  (db : forall a b : B, {a = b} + {a <> b}) : forall p q : A * B, {p = q} + {p <> q}.
Proof. decide equality. Defined.

Section Group.
Variables (A K : Type).
Variable K_dec : forall a b : K, {a = b} + {a <> b}.
Variable key : A -> K.

Definition keqb (a b : K) : bool := if K_dec a b then true else false.
Lemma keqb_true a b : keqb a b = true <-> a = b.
Proof. unfold keqb; destruct (K_dec a b); split; congruence. Qed.
Lemma keqb_refl a : keqb a a = true.
Proof. apply keqb_true; reflexivity. Qed.
Lemma keqb_false a b : keqb a b = false <-> a <> b.
Proof. unfold keqb; destruct (K_dec a b); split; congruence. Qed.

(* keys in order of first occurrence: the key order of a Python dict *)
Fixpoint ukeys (l : list K) : list K :=
  match l with
  | [] => []
  | k :: r => k :: filter (fun k' => negb (keqb k k')) (ukeys r)
  end.

Lemma In_ukeys k l : In k (ukeys l) <-> In k l.
Proof.
  induction l as [|a r IH]; simpl; [tauto|].
  rewrite filter_In, IH. split.
  - intros [H|[H _]]; auto.
  - intros [H|H]; auto. destruct (K_dec a k) as [E|E]; auto.
    right; split; auto. apply negb_true_iff, keqb_false; auto.
Qed.

Lemma NoDup_ukeys l : NoDup (ukeys l).
Proof.
  induction l as [|a r IH]; simpl; constructor.
  - rewrite filter_In. intros [_ H]. rewrite keqb_refl in H; discriminate.
  - apply NoDup_filter; auto.
Qed.

Definition sel (k : K) (l : list A) : list A := filter (fun y => keqb k (key y)) l.
Definition groups (l : list A) : list (K * list A) :=
  map (fun k => (k, sel k l)) (ukeys (map key l)).

Lemma sel_In k l y : In y (sel k l) <-> In y l /\ key y = k.
Proof. unfold sel; rewrite filter_In, keqb_true. intuition congruence. Qed.

Lemma groups_In kg l : In kg (groups l) -> snd kg = sel (fst kg) l /\ exists y, In y l /\ key y = fst kg.
Proof.
  unfold groups; rewrite in_map_iff. intros [k [E H]]; subst kg; simpl. split; auto.
  apply In_ukeys, in_map_iff in H. destruct H as [y [E H]]. exists y; auto.
Qed.

Lemma groups_nonempty kg l : In kg (groups l) -> snd kg <> [].
Proof.
  intros H. destruct (groups_In _ _ H) as [E [y [Hy Ek]]]. rewrite E.
  intros N. assert (In y (sel (fst kg) l)) by (apply sel_In; auto). rewrite N in H0; inversion H0.
Qed.

Lemma groups_sub kg l y : In kg (groups l) -> In y (snd kg) -> In y l /\ key y = fst kg.
Proof. intros H Hy. destruct (groups_In _ _ H) as [E _]. rewrite E in Hy. apply sel_In, Hy. Qed.
End Group.

Fixpoint ins (n : nat) (l : list nat) : list nat :=
  match l with
  | [] => [n]
  | m :: r => if n <=? m then n :: l else m :: ins n r
  end.
Fixpoint isort (l : list nat) : list nat :=
  match l with [] => [] | n :: r => ins n (isort r) end.
Lemma ins_perm n l : Permutation (n :: l) (ins n l).
Proof.
  induction l as [|m r IH]; simpl; auto.
  destruct (n <=? m); auto. eapply perm_trans; [apply perm_swap|]. auto.
Qed.
Lemma isort_perm l : Permutation l (isort l).
Proof. induction l; simpl; auto. eapply perm_trans; [|apply ins_perm]. auto. Qed.


Inductive sid := SInt (n : nat) | STuple (l : list nat) | SEverywhere.
Inductive osid := OId (n : nat) | OOtherwise.
Definition osid_dec : forall a b : osid, {a = b} + {a <> b}.
Proof. decide equality. apply Nat.eq_dec. Defined.
Definition oseqb := keqb osid_dec.

Definition ids_of (s : sid) : list nat :=
  match s with SInt n => [n] | STuple l => l | SEverywhere => [] end.
Definition is_everywhere (s : sid) : bool :=
  match s with SEverywhere => true | _ => false end.

Section CMonoid.
Variable M : Type.
Variable zero : M.
Variable add : M -> M -> M.
Hypothesis add_comm : forall a b, add a b = add b a.
Hypothesis add_assoc : forall a b c, add a (add b c) = add (add a b) c.
Hypothesis add_0_l : forall a, add zero a = a.

Lemma add_0_r a : add a zero = a.
Proof. rewrite add_comm; apply add_0_l. Qed.

Definition msum (l : list M) : M := fold_right add zero l.

Lemma msum_app l1 l2 : msum (l1 ++ l2) = add (msum l1) (msum l2).
Proof.
  induction l1; simpl; [symmetry; apply add_0_l|]. rewrite IHl1. apply add_assoc.
Qed.

Lemma msum_perm l1 l2 : Permutation l1 l2 -> msum l1 = msum l2.
Proof.
  induction 1; simpl; auto.
  - congruence.
  - rewrite !add_assoc. f_equal. apply add_comm.
  - congruence.
Qed.

Fixpoint rep (n : nat) (v : M) : M := match n with 0 => zero | S k => add v (rep k v) end.

Definition gate (b : bool) (v : M) : M := if b then v else zero.

Lemma msum_map_add A (f g : A -> M) l :
  msum (map (fun x => add (f x) (g x)) l) = add (msum (map f l)) (msum (map g l)).
Proof.
  induction l; simpl; [symmetry; apply add_0_l|]. rewrite IHl.
  rewrite !add_assoc. f_equal. rewrite <- !add_assoc. f_equal. apply add_comm.
Qed.

Lemma msum_map_zero A (l : list A) : msum (map (fun _ => zero) l) = zero.
Proof. induction l; simpl; auto. rewrite IHl. apply add_0_l. Qed.

Lemma msum_flat_map A B (f : A -> list B) (w : B -> M) l :
  msum (map w (flat_map f l)) = msum (map (fun a => msum (map w (f a))) l).
Proof. induction l; simpl; auto. rewrite map_app, msum_app, IHl. reflexivity. Qed.

Lemma msum_map_ext_in A (f g : A -> M) l :
  (forall x, In x l -> f x = g x) -> msum (map f l) = msum (map g l).
Proof. intros H. f_equal. apply map_ext_in; auto. Qed.

Lemma msum_map_gate A (b : bool) (f : A -> M) l :
  msum (map (fun x => gate b (f x)) l) = gate b (msum (map f l)).
Proof. destruct b; simpl; auto. apply msum_map_zero. Qed.

Lemma msum_map_if A (b : bool) (f : A -> M) l : msum (map f (if b then l else [])) = gate b (msum (map f l)).
Proof. destruct b; reflexivity. Qed.

Section OneHot.
Variable K : Type.
Variable K_dec : forall a b : K, {a = b} + {a <> b}.
Definition inb (k : K) (l : list K) : bool := existsb (keqb K_dec k) l.
Lemma inb_In k l : inb k l = true <-> In k l.
Proof.
  unfold inb; rewrite existsb_exists. split.
  - intros [x [H E]]. apply keqb_true in E. subst; auto.
  - intros H. exists k; split; auto. apply keqb_refl.
Qed.
Lemma msum_gate_count k0 v ks :
  msum (map (fun k => gate (keqb K_dec k k0) v) ks) = rep (count_occ K_dec ks k0) v.
Proof.
  induction ks as [|k ks IH]; [reflexivity|]. cbn [map msum fold_right count_occ].
  fold (msum (map (fun k => gate (keqb K_dec k k0) v) ks)). rewrite IH. unfold keqb.
  destruct (K_dec k k0); [reflexivity | apply add_0_l].
Qed.

Lemma msum_onehot k0 v ks : NoDup ks ->
  msum (map (fun k => gate (keqb K_dec k k0) v) ks) = gate (inb k0 ks) v.
Proof.
  intro N. rewrite msum_gate_count. destruct (inb k0 ks) eqn:E.
  - apply inb_In in E. rewrite (proj1 (NoDup_count_occ' K_dec ks) N k0 E). apply add_0_r.
  - rewrite (proj1 (count_occ_not_In K_dec ks k0)); [reflexivity|]. rewrite <- inb_In, E. discriminate.
Qed.
End OneHot.

(* the sum over all groups of a dict-of-lists is the sum over the list *)
Section GroupSum.
Variables (A K : Type).
Variable K_dec : forall a b : K, {a = b} + {a <> b}.
Variable key : A -> K.
Variable F : K -> A -> M.

Lemma sel_sum_gen ks l : NoDup ks -> (forall y, In y l -> In (key y) ks) ->
  msum (map (fun k => msum (map (F k) (sel K_dec key k l))) ks) = msum (map (fun y => F (key y) y) l).
Proof.
  intros Hnd. induction l as [|y r IH]; intros Hin.
  - simpl. apply msum_map_zero.
  - simpl.
    transitivity (msum (map (fun k => add (gate (keqb K_dec k (key y)) (F (key y) y))
                                         (msum (map (F k) (sel K_dec key k r)))) ks)).
    + apply msum_map_ext_in. intros k _. unfold sel; simpl.
      destruct (K_dec k (key y)) as [E|E].
      * rewrite (proj2 (keqb_true K_dec _ _) E). simpl. subst k. reflexivity.
      * rewrite (proj2 (keqb_false K_dec _ _) E). simpl. symmetry; apply add_0_l.
    + rewrite msum_map_add, IH by (intros; apply Hin; simpl; auto).
      rewrite msum_onehot by assumption.
      replace (inb K_dec (key y) ks) with true; [reflexivity|].
      symmetry. apply inb_In, Hin. simpl; auto.
Qed.

Lemma groups_sum l :
  msum (map (fun kg => msum (map (F (fst kg)) (snd kg))) (groups K_dec key l))
  = msum (map (fun y => F (key y) y) l).
Proof.
  unfold groups. rewrite map_map. simpl. apply sel_sum_gen.
  - apply NoDup_ukeys.
  - intros y Hy. apply In_ukeys, in_map, Hy.
Qed.

(* a stage that emits, for every group, outputs weighing what the group's members weigh *)
Lemma groups_flat_sum B (W : B -> M) (out : K * list A -> list B) l :
  (forall kg, In kg (groups K_dec key l) -> msum (map W (out kg)) = msum (map (F (fst kg)) (snd kg))) ->
  msum (map W (flat_map out (groups K_dec key l))) = msum (map (fun y => F (key y) y) l).
Proof. intro Hg. rewrite msum_flat_map, <- groups_sum. apply msum_map_ext_in, Hg. Qed.
End GroupSum.

Section Model.
Variables (MD CK : Type).
Variable canon : MD -> CK.                   (* hash (canonicalize_metadata md) *)
Variable CK_dec : forall a b : CK, {a = b} + {a <> b}.
Variable M_dec : forall a b : M, {a = b} + {a <> b}.   (* equality of (renumbered) integrands *)

Record integral := mkI { idom : nat; ityp : nat; isid : sid; icd : nat; imd : MD; ival : M }.
(* after rearrange + accumulate: one single subdomain id *)
Record sintegral := mkS { sdom : nat; styp : nat; ssid : osid; scd : nat; smd : MD; sval : M }.
(* output of group_form_integrals: a tuple of subdomain ids *)
Record ointegral := mkO { odom : nat; otyp : nat; osids : list osid; ocd : nat; omd : MD; oval : M }.

Definition dt_dec := prod_dec Nat.eq_dec Nat.eq_dec.
Definition dt_key (x : integral) : nat * nat := (idom x, ityp x).

(* rearrange_integrals_by_single_subdomains *)
Definition explicit_pairs (g : list integral) : list (nat * integral) :=
  flat_map (fun x => map (fun n => (n, x)) (ids_of (isid x))) g.
Definition everywhere_of (g : list integral) : list integral :=
  filter (fun x => is_everywhere (isid x)) g.
Definition declared_ids (g : list integral) : list nat :=
  ukeys Nat.eq_dec (map fst (explicit_pairs g)).
Definition rearrange (append : bool) (g : list integral) : list (osid * list integral) :=
  let E := explicit_pairs g in
  let ev := everywhere_of g in
  map (fun n => (OId n, map snd (sel Nat.eq_dec fst n E) ++ (if append then ev else [])))
      (isort (declared_ids g))                         (* sorted_by_key: ints first, ascending *)
  ++ match ev with [] => [] | _ => [(OOtherwise, ev)] end.

(* accumulate_integrands_with_same_metadata, for integrals sharing (d, t, subdomain id, cd) *)
Definition accumulate (d t : nat) (s : osid) (cd : nat) (g : list integral) : list sintegral :=
  flat_map (fun mg => match snd mg with
                      | [] => []
                      | x :: _ => [mkS d t s cd (imd x) (msum (map ival (snd mg)))]
                      end)
           (groups CK_dec (fun x => canon (imd x)) g).

(* grouping by coordinate derivative, then by metadata *)
Definition process_sid (d t : nat) (s : osid) (ss : list integral) : list sintegral :=
  flat_map (fun cg => accumulate d t s (fst cg) (snd cg)) (groups Nat.eq_dec icd ss).

Definition process_dt (append : bool) (d t : nat) (g : list integral) : list sintegral :=
  flat_map (fun sg => process_sid d t (fst sg) (snd sg)) (rearrange append g).

Definition pre_merge (append : bool) (l : list integral) : list sintegral :=
  flat_map (fun kg => process_dt append (fst (fst kg)) (snd (fst kg)) (snd kg))
           (groups dt_dec dt_key l).

(* the final merge: key (type, domain, meta hash, integrand); the integrand of the source carries the
   coordinate derivative, which the model keeps apart as [scd], hence the fifth component of [fkey];
   subdomain ids are concatenated; metadata_table[key] keeps the LAST metadata *)
Definition fkey_dec := prod_dec (prod_dec (prod_dec (prod_dec Nat.eq_dec Nat.eq_dec) CK_dec) Nat.eq_dec) M_dec.
Definition fkey (s : sintegral) : nat * nat * CK * nat * M :=
  (styp s, sdom s, canon (smd s), scd s, sval s).
Definition final_merge (pre : list sintegral) : list ointegral :=
  flat_map (fun kg => match snd kg with
                      | [] => []
                      | x :: _ => [mkO (sdom x) (styp x) (map ssid (snd kg)) (scd x)
                                       (smd (last (snd kg) x)) (sval x)]
                      end)
           (groups fkey_dec fkey pre).

Definition group_form_integrals (append : bool) (l : list integral) : list ointegral :=
  final_merge (pre_merge append l).

(* build_integral_data: one IntegralData per (domain, type, subdomain id tuple), holding the
   integrals with that key in order *)
Definition idkey_dec := prod_dec (prod_dec Nat.eq_dec Nat.eq_dec) (list_eq_dec osid_dec).
Definition idkey (o : ointegral) : nat * nat * list osid := (odom o, otyp o, osids o).
Definition build_integral_data (os : list ointegral) : list (nat * nat * list osid * list ointegral) :=
  groups idkey_dec idkey os.
Definition integral_data_integrals (ids : list (nat * nat * list osid * list ointegral)) : list ointegral :=
  flat_map (fun kg => snd kg) ids.

(* specification: what is integrated on (domain d, type t, subdomain s, coordinate derivative
   cd, metadata class ck)                                                                       *)
Record query := mkQ { qd : nat; qt : nat; qs : osid; qcd : nat; qck : CK }.
Definition ckeqb := keqb CK_dec.

(* does some integral of (d,t) mention the integer id n explicitly ? *)
Definition declared (l : list integral) (d t n : nat) : bool :=
  existsb (fun y => (idom y =? d) && (ityp y =? t) && inb Nat.eq_dec n (ids_of (isid y))) l.

Definition matches (q : query) (d t cd : nat) (m : MD) : bool :=
  (d =? qd q) && (t =? qt q) && (cd =? qcd q) && ckeqb (canon m) (qck q).

Definition Wout (q : query) (o : ointegral) : M :=
  gate (matches q (odom o) (otyp o) (ocd o) (omd o)) (rep (count_occ osid_dec (osids o) (qs q)) (oval o)).
Definition WS (q : query) (s : sintegral) : M :=
  gate (matches q (sdom s) (styp s) (scd s) (smd s) && oseqb (ssid s) (qs q)) (sval s).

Lemma last_In A (l : list A) d : l <> [] -> In (last l d) l.
Proof.
  induction l as [|a r IH]; [congruence|]. intros _. destruct r as [|b r]; [simpl; auto|].
  right. apply IH. discriminate.
Qed.

Lemma matches_canon q d t cd m m' : canon m = canon m' -> matches q d t cd m = matches q d t cd m'.
Proof. unfold matches. intros ->. reflexivity. Qed.

Lemma final_merge_sum q pre :
  msum (map (Wout q) (final_merge pre)) = msum (map (WS q) pre).
Proof.
  unfold final_merge. apply (groups_flat_sum fkey_dec fkey (fun _ => WS q)). intros [k g] Hin.
  assert (Hall : forall s, In s g -> fkey s = k) by (intros s Hs; apply (groups_sub _ _ _ _ _ Hin), Hs).
  cbn [fst snd]. destruct g as [|x r]; [reflexivity|]. set (g := x :: r) in *.
  assert (Hx : fkey x = k) by (apply Hall; left; reflexivity).
  assert (Hl : fkey (last g x) = k) by (apply Hall, last_In; discriminate).
  cbn [map msum fold_right]. rewrite add_0_r. unfold Wout. cbn [odom otyp osids ocd omd oval].
  rewrite <- (msum_gate_count osid_dec), map_map, <- msum_map_gate. apply msum_map_ext_in. intros s Hs.
  rewrite <- (Hall s Hs) in Hx, Hl. unfold fkey in Hx, Hl.
  injection Hx as Et Ed _ Ecd Ev. injection Hl as _ _ Ec _ _.
  unfold WS, oseqb. rewrite Et, Ed, Ecd, Ev, (matches_canon q _ _ _ Ec).
  destruct (matches _ _ _ _ _); destruct (keqb _ _ _); reflexivity.
Qed.

(* what an integral x of domain d and type t contributes to the query q, before its subdomains are looked at *)
Definition B (q : query) (d t : nat) (x : integral) : M :=
  gate (matches q d t (icd x) (imd x)) (ival x).

Lemma accumulate_sum q d t s cd g :
  msum (map (WS q) (accumulate d t s cd g))
  = msum (map (fun x => gate (oseqb s (qs q)) (gate (matches q d t cd (imd x)) (ival x))) g).
Proof.
  unfold accumulate, matches.
  apply (groups_flat_sum CK_dec (fun x => canon (imd x))
           (fun k x => gate (oseqb s (qs q)) (gate ((d =? qd q) && (t =? qt q) && (cd =? qcd q) && ckeqb k (qck q)) (ival x)))).
  intros [k mg] Hin. cbn [fst snd]. destruct mg as [|x r]; [reflexivity|].
  destruct (groups_sub _ _ _ _ x Hin (or_introl eq_refl)) as [_ Hx]. cbn [fst] in Hx.
  set (mg := x :: r). cbn [map msum fold_right]. rewrite add_0_r. unfold WS, matches.
  cbn [sdom styp ssid scd smd sval]. rewrite Hx, !msum_map_gate.
  destruct ((d =? qd q) && (t =? qt q) && (cd =? qcd q) && ckeqb k (qck q)); destruct (oseqb s (qs q)); reflexivity.
Qed.

Lemma process_sid_sum q d t s ss :
  msum (map (WS q) (process_sid d t s ss))
  = gate (oseqb s (qs q)) (msum (map (B q d t) ss)).
Proof.
  unfold process_sid. rewrite <- msum_map_gate.
  apply (groups_flat_sum Nat.eq_dec icd
           (fun cd x => gate (oseqb s (qs q)) (gate (matches q d t cd (imd x)) (ival x)))).
  intros [cd g] _. apply accumulate_sum.
Qed.

Lemma explicit_pairs_sum (G : nat -> integral -> M) g :
  msum (map (fun p => G (fst p) (snd p)) (explicit_pairs g))
  = msum (map (fun x => msum (map (fun n => G n x) (ids_of (isid x)))) g).
Proof.
  unfold explicit_pairs. rewrite msum_flat_map. apply msum_map_ext_in. intros x _.
  rewrite map_map. reflexivity.
Qed.

Lemma oseqb_OId n n0 : oseqb (OId n) (OId n0) = keqb Nat.eq_dec n n0.
Proof.
  unfold oseqb, keqb. destruct (Nat.eq_dec n n0) as [->|N]; destruct (osid_dec _ _) as [E|E]; congruence.
Qed.

Lemma msum_ids_count (n0 : nat) (v : M) (ns : list nat) :
  msum (map (fun n => gate (oseqb (OId n) (OId n0)) v) ns) = rep (count_occ Nat.eq_dec ns n0) v.
Proof. rewrite <- msum_gate_count. apply msum_map_ext_in. intros n _. rewrite oseqb_OId. reflexivity. Qed.

Lemma rep_gate n b v : rep n (gate b v) = gate b (rep n v).
Proof. destruct b; simpl; auto. induction n; simpl; auto. rewrite IHn. apply add_0_l. Qed.

Lemma msum_filter A (p : A -> bool) (f : A -> M) l :
  msum (map f (filter p l)) = msum (map (fun x => gate (p x) (f x)) l).
Proof.
  induction l as [|a l IH]; simpl; auto. destruct (p a); simpl; rewrite IH; auto.
Qed.

Definition declared_in (g : list integral) (n : nat) : bool := inb Nat.eq_dec n (declared_ids g).

(* how many times x is integrated over the output subdomain s: as often as s occurs among its ids; an
   "everywhere" integral once over "otherwise" and, when [append], once over every declared id *)
Definition mult_g (append : bool) (dcl : nat -> bool) (x : integral) (s : osid) : nat :=
  match s, isid x with
  | OId n, SEverywhere => if append && dcl n then 1 else 0
  | OId n, sx => count_occ Nat.eq_dec (ids_of sx) n
  | OOtherwise, SEverywhere => 1
  | OOtherwise, _ => 0
  end.

(* [rearrange] for an arbitrary weight of an integral in a slot: the explicit ids of every integral,
   the 'everywhere' integrals once more under every declared id (if appended) and under 'otherwise' *)
Lemma rearrange_sum (Fn : osid -> integral -> M) append g :
  msum (map (fun sg => msum (map (Fn (fst sg)) (snd sg))) (rearrange append g)) =
  add (msum (map (fun x => msum (map (fun n => Fn (OId n) x) (ids_of (isid x)))) g))
      (add (msum (map (fun n => msum (map (Fn (OId n)) (if append then everywhere_of g else [])))
                      (declared_ids g)))
           (msum (map (Fn OOtherwise) (everywhere_of g)))).
Proof.
  unfold rearrange. rewrite map_app, msum_app, map_map. cbn [fst snd].
  rewrite <- (msum_perm (Permutation_map _ (isort_perm (declared_ids g)))).
  erewrite (@msum_map_ext_in _ _ _ (declared_ids g))
    by (intros n _; rewrite map_app, msum_app, map_map; reflexivity).
  rewrite msum_map_add, <- add_assoc. f_equal; [|f_equal].
  - etransitivity; [|exact (explicit_pairs_sum (fun n x => Fn (OId n) x) g)].
    exact (sel_sum_gen Nat.eq_dec fst (fun n p => Fn (OId n) (snd p)) (explicit_pairs g)
             (NoDup_ukeys Nat.eq_dec _)
             (fun y Hy => proj2 (In_ukeys Nat.eq_dec _ _) (in_map fst _ _ Hy))).
  - destruct (everywhere_of g); [reflexivity | apply add_0_r].
Qed.

Lemma declared_onehot g s0 v :
  msum (map (fun n => gate (oseqb (OId n) s0) v) (declared_ids g))
  = gate (match s0 with OId n0 => declared_in g n0 | OOtherwise => false end) v.
Proof.
  destruct s0 as [n0|]; [|exact (msum_map_zero (declared_ids g))].
  rewrite (msum_map_ext_in _ (fun n => gate (keqb Nat.eq_dec n n0) v))
    by (intros n _; rewrite oseqb_OId; reflexivity).
  apply msum_onehot, NoDup_ukeys.
Qed.

(* what [x] contributes to slot [s0], summand by summand of [rearrange_sum], is [mult_g] copies *)
Lemma slot_mult append dcl x s0 v :
  add (msum (map (fun n => gate (oseqb (OId n) s0) v) (ids_of (isid x))))
      (add (gate (match s0 with OId n0 => dcl n0 | OOtherwise => false end)
                 (gate append (gate (is_everywhere (isid x)) v)))
           (gate (is_everywhere (isid x)) (gate (oseqb OOtherwise s0) v)))
  = rep (mult_g append dcl x s0) v.
Proof.
  unfold mult_g. destruct s0 as [n0|].
  - rewrite msum_ids_count. change (oseqb OOtherwise (OId n0)) with false.
    destruct (isid x); destruct append; destruct (dcl n0); cbn; rewrite ?add_0_l, ?add_0_r; reflexivity.
  - change (oseqb OOtherwise OOtherwise) with true.
    rewrite (msum_map_zero (ids_of (isid x)) : msum (map (fun n => gate (oseqb (OId n) OOtherwise) v) _) = zero).
    destruct (isid x); cbn; rewrite ?add_0_l, ?add_0_r; reflexivity.
Qed.

Lemma process_dt_sum q append d t g :
  msum (map (WS q) (process_dt append d t g))
  = msum (map (fun x => gate (matches q d t (icd x) (imd x))
                             (rep (mult_g append (declared_in g) x (qs q)) (ival x))) g).
Proof.
  unfold process_dt. rewrite msum_flat_map.
  erewrite msum_map_ext_in by (intros sg _; rewrite process_sid_sum, <- msum_map_gate; reflexivity).
  rewrite (rearrange_sum (fun s x => gate (oseqb s (qs q)) (B q d t x))).
  erewrite (@msum_map_ext_in _ _ _ (declared_ids g))
    by (intros n _; rewrite msum_map_gate, msum_map_if; reflexivity).
  rewrite declared_onehot. unfold everywhere_of. rewrite !msum_filter, <- !msum_map_gate, <- !msum_map_add.
  apply msum_map_ext_in. intros x _. rewrite <- rep_gate.
  exact (slot_mult append (declared_in g) x (qs q) (B q d t x)).
Qed.

Lemma declared_in_spec g n :
  declared_in g n = existsb (fun y => inb Nat.eq_dec n (ids_of (isid y))) g.
Proof.
  apply eq_true_iff_eq. unfold declared_in, declared_ids. rewrite inb_In, In_ukeys, in_map_iff, existsb_exists.
  unfold explicit_pairs. split.
  - intros [[n' x] [E H]]. simpl in E; subst n'. apply in_flat_map in H. destruct H as [y [Hy H]].
    apply in_map_iff in H. destruct H as [m [E H]]. inversion E; subst. exists x; split; auto. apply inb_In; auto.
  - intros [x [Hx H]]. apply inb_In in H. exists (n, x); split; auto. apply in_flat_map. exists x; split; auto.
    apply in_map_iff. exists n; auto.
Qed.

Lemma declared_sel l d t n :
  declared_in (sel dt_dec dt_key (d, t) l) n = declared l d t n.
Proof.
  rewrite declared_in_spec. apply eq_true_iff_eq. unfold declared. rewrite !existsb_exists. split.
  - intros [y [Hy H]]. apply sel_In in Hy. destruct Hy as [Hy E]. unfold dt_key in E. inversion E.
    exists y; split; auto. rewrite !Nat.eqb_refl. simpl. subst. exact H.
  - intros [y [Hy H]]. apply andb_true_iff in H. destruct H as [H H3]. apply andb_true_iff in H. destruct H as [H1 H2].
    apply Nat.eqb_eq in H1, H2. exists y; split; auto. apply sel_In. split; auto. unfold dt_key; congruence.
Qed.

Definition mult (append : bool) (l : list integral) (x : integral) (s : osid) : nat :=
  mult_g append (declared l (idom x) (ityp x)) x s.
Definition Win (append : bool) (l : list integral) (q : query) (x : integral) : M :=
  gate (matches q (idom x) (ityp x) (icd x) (imd x)) (rep (mult append l x (qs q)) (ival x)).

Lemma pre_merge_sum q append l :
  msum (map (WS q) (pre_merge append l)) = msum (map (Win append l q) l).
Proof.
  unfold pre_merge. apply (groups_flat_sum dt_dec dt_key (fun _ => Win append l q)). intros [[d t] g] Hin.
  destruct (groups_In _ _ _ _ Hin) as [Eg _]. cbn [fst snd] in *.
  rewrite process_dt_sum. apply msum_map_ext_in. intros x Hx.
  destruct (groups_sub _ _ _ _ _ Hin Hx) as [_ Ek]. injection Ek as <- <-.
  unfold Win, mult, mult_g. destruct (qs q); [|reflexivity]. destruct (isid x); try reflexivity.
  rewrite Eg, declared_sel. reflexivity.
Qed.

(** Main theorem (sum preservation).  For ALL lists of integrals, both values of the append
    option and EVERY key (domain, integral type, subdomain id or 'otherwise', coordinate
    derivative class, metadata class): the sum of the output integrands carrying that key
    (an output integral with subdomain tuple ids counts once per occurrence of the id) equals
    the sum of the input integrands that apply there. *)
Theorem C15_group_sums : forall (append : bool) (l : list integral) (q : query),
  msum (map (Wout q) (group_form_integrals append l)) = msum (map (Win append l q) l).
Proof.
  intros. unfold group_form_integrals. rewrite final_merge_sum. apply pre_merge_sum.
Qed.

(** build_integral_data only regroups: the integrals held by the IntegralData objects have the
    same per-key sums, and every IntegralData holds only integrals of the input that have its key. *)
Theorem C15_build_integral_data_sums : forall (os : list ointegral) (q : query),
  msum (map (Wout q) (integral_data_integrals (build_integral_data os))) = msum (map (Wout q) os).
Proof.
  intros. unfold integral_data_integrals, build_integral_data. rewrite msum_flat_map.
  exact (groups_sum idkey_dec idkey (fun _ o => Wout q o) os).
Qed.

Theorem C15_build_integral_data_keys : forall os kg o,
  In kg (build_integral_data os) -> In o (snd kg) ->
  In o os /\ (odom o, otyp o, osids o) = fst kg.
Proof.
  intros os kg o H Ho. exact (groups_sub _ _ _ _ _ H Ho).
Qed.

Corollary C15_form_data_sums : forall append l q,
  msum (map (Wout q) (integral_data_integrals (build_integral_data (group_form_integrals append l))))
  = msum (map (Win append l q) l).
Proof. intros. rewrite C15_build_integral_data_sums. apply C15_group_sums. Qed.

Lemma rearrange_sub append g sg x : In sg (rearrange append g) -> In x (snd sg) -> In x g.
Proof.
  unfold rearrange. intros H Hx. apply in_app_or in H as [H|H].
  - apply in_map_iff in H as (n & <- & _). cbn [snd] in Hx. apply in_app_or in Hx as [Hx|Hx].
    + apply in_map_iff in Hx as ([n' y] & E & Hy). cbn [snd] in E. subst y. apply sel_In in Hy as [Hy _].
      apply in_flat_map in Hy as (z & Hz & Hy). apply in_map_iff in Hy as (m & [= _ <-] & _). exact Hz.
    + destruct append; [|destruct Hx]. apply filter_In in Hx. apply Hx.
  - destruct (everywhere_of g) eqn:Eev; [destruct H|]. destruct H as [<-|[]]. cbn [snd] in Hx.
    rewrite <- Eev in Hx. apply filter_In in Hx. apply Hx.
Qed.

Lemma pre_merge_prov append l s : In s (pre_merge append l) -> exists x, In x l /\ imd x = smd s.
Proof.
  unfold pre_merge, process_dt, process_sid, accumulate. intro Hs.
  apply in_flat_map in Hs as (kg & Hg & Hs). apply in_flat_map in Hs as (sg & Hsg & Hs).
  apply in_flat_map in Hs as (cg & Hcg & Hs). apply in_flat_map in Hs as (mg & Hmg & Hs).
  destruct (snd mg) as [|x r] eqn:Emg; [destruct Hs|]. destruct Hs as [<-|[]]. exists x. split; [|reflexivity].
  assert (Hx : In x (snd mg)) by (rewrite Emg; left; reflexivity).
  apply (groups_sub _ _ _ _ _ Hmg) in Hx as [Hx _]. apply (groups_sub _ _ _ _ _ Hcg) in Hx as [Hx _].
  apply (rearrange_sub _ _ _ _ Hsg) in Hx. apply (groups_sub _ _ _ _ _ Hg) in Hx as [Hx _]. exact Hx.
Qed.

Lemma final_merge_prov pre o : In o (final_merge pre) -> exists s, In s pre /\ smd s = omd o.
Proof.
  unfold final_merge. intro Ho. apply in_flat_map in Ho as (kg & Hg & Ho).
  destruct (snd kg) as [|x r] eqn:Eg; [destruct Ho|]. destruct Ho as [<-|[]].
  exists (last (x :: r) x). split; [|reflexivity].
  apply (groups_sub _ _ _ _ (last (x :: r) x) Hg). rewrite Eg. apply last_In. discriminate.
Qed.

Lemma group_form_integrals_prov append l o :
  In o (group_form_integrals append l) -> exists x, In x l /\ imd x = omd o.
Proof.
  intros H. apply final_merge_prov in H. destruct H as [s [Hs E]].
  apply pre_merge_prov in Hs. destruct Hs as [x [Hx E']]. exists x; split; congruence.
Qed.

Variable MD_dec : forall a b : MD, {a = b} + {a <> b}.
Definition mdeqb := keqb MD_dec.
Definition matchesM (d0 t0 cd0 : nat) (m0 : MD) (d t cd : nat) (m : MD) : bool :=
  (d =? d0) && (t =? t0) && (cd =? cd0) && mdeqb m m0.
Definition WinM append l d0 t0 (s0 : osid) cd0 m0 (x : integral) : M :=
  gate (matchesM d0 t0 cd0 m0 (idom x) (ityp x) (icd x) (imd x)) (rep (mult append l x s0) (ival x)).
Definition WoutM d0 t0 (s0 : osid) cd0 m0 (o : ointegral) : M :=
  gate (matchesM d0 t0 cd0 m0 (odom o) (otyp o) (ocd o) (omd o)) (rep (count_occ osid_dec (osids o) s0) (oval o)).

(* the statement: for the key whose metadata component is the metadata value m0 ITSELF, the outputs
   labelled m0 integrate exactly the inputs labelled m0 - nothing with another metadata is mixed in *)
Definition no_merge_statement (append : bool) (l : list integral) : Prop :=
  forall d0 t0 s0 cd0 m0,
    msum (map (WoutM d0 t0 s0 cd0 m0) (group_form_integrals append l))
    = msum (map (WinM append l d0 t0 s0 cd0 m0) l).

(* guard = negation of the known-finding class: no two metadata of the form collide under canon *)
Definition canon_inj_on (l : list integral) : Prop :=
  forall x y, In x l -> In y l -> canon (imd x) = canon (imd y) -> imd x = imd y.

Theorem C15_no_merge_partial : forall append l, canon_inj_on l -> no_merge_statement append l.
Proof.
  intros append l Hinj d0 t0 s0 cd0 m0.
  assert (Prov : forall o, In o (group_form_integrals append l) -> In (omd o) (map imd l)).
  { intros o Ho. apply group_form_integrals_prov in Ho as (x & Hx & <-). apply in_map, Hx. }
  destruct (in_dec MD_dec m0 (map imd l)) as [Hin|Hnin].
  - (* m0 occurs: among the metadata of l, to be m0 is to be in its class, and C15_group_sums applies *)
    assert (Heq : forall m, In m (map imd l) -> mdeqb m m0 = ckeqb (canon m) (canon m0)).
    { intros m Hm. apply in_map_iff in Hin as (x0 & <- & Hx0). apply in_map_iff in Hm as (x & <- & Hx).
      apply eq_true_iff_eq. unfold mdeqb, ckeqb. rewrite !keqb_true.
      split; [intros ->; reflexivity | apply Hinj; assumption]. }
    transitivity (msum (map (Wout (mkQ d0 t0 s0 cd0 (canon m0))) (group_form_integrals append l))).
    + apply msum_map_ext_in. intros o Ho. unfold WoutM, Wout, matchesM, matches. cbn [qd qt qs qcd qck].
      rewrite (Heq _ (Prov o Ho)). reflexivity.
    + rewrite C15_group_sums. apply msum_map_ext_in. intros x Hx. unfold WinM, Win, matchesM, matches.
      cbn [qd qt qs qcd qck]. rewrite (Heq _ (in_map imd _ _ Hx)). reflexivity.
  - (* m0 does not occur: both sums are empty *)
    assert (Hne : forall m, In m (map imd l) -> mdeqb m m0 = false).
    { intros m Hm. apply keqb_false. intros ->. exact (Hnin Hm). }
    rewrite (msum_map_ext_in _ (fun _ => zero)), (msum_map_ext_in (WinM _ _ _ _ _ _ _) (fun _ => zero)),
      !msum_map_zero; [reflexivity| |].
    + intros x Hx. unfold WinM, matchesM. rewrite (Hne _ (in_map imd _ _ Hx)), andb_false_r. reflexivity.
    + intros o Ho. unfold WoutM, matchesM. rewrite (Hne _ (Prov o Ho)), andb_false_r. reflexivity.
Qed.

(** no merge, under the hypothesis that the canonicalisation key is injective *)
Theorem C15_no_merge : (forall m m', canon m = canon m' -> m = m') ->
  forall append l, no_merge_statement append l.
Proof. intros Hinj append l. apply C15_no_merge_partial. intros x y _ _. apply Hinj. Qed.

End Model.
End CMonoid.

(* refutation for a canonicalisation that is not injective: metadata are numbers, canon keeps all
   but the last digit (str(ndarray) keeps 8 significant digits).  Two integrals over the same
   subdomain with metadata 1231 and 1232 and integrands 1 and 10 are summed into ONE output
   labelled 1231: the key (.., 1232) integrates 0 instead of 10.                                *)
Definition refute_canon (m : nat) : nat := m / 10.
Definition refute_input : list (integral nat nat) :=
  [mkI 0 0 (SInt 1) 0 1231 1; mkI 0 0 (SInt 1) 0 1232 10].

Theorem C15_no_merge_refuted :
  exists (canon : nat -> nat) (l : list (integral nat nat)),
    ~ no_merge_statement 0 Nat.add canon Nat.eq_dec Nat.eq_dec Nat.eq_dec true l.
Proof.
  exists refute_canon, refute_input. intros H.
  specialize (H 0 0 (OId 1) 0 1232). vm_compute in H. discriminate H.
Qed.

Print Assumptions C15_group_sums.
Print Assumptions C15_form_data_sums.
Print Assumptions C15_no_merge_partial.
Print Assumptions C15_no_merge.
Print Assumptions C15_no_merge_refuted.
