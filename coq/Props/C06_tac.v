(* C06 - the tactics of the generated inverse obligations in coq/Gen/C06_t2_*.v (the other obligations
   of C06 are closed by the [close] of coqgen.HEADER).  [div] and [char0] are Section variables of the
   generated files and are passed as arguments. *)
Require Import UFLV.Core.Tac.

(* The components den (lowered inverse) c = den (Inverse A) c of one case, as a conjunction, under
   H : Y <> 0 with Y the determinant of the specification.  The lowered code divides by its own
   expansion X of the determinant: X = Y is proved by ring, once, and X replaced by Y in every
   component; then Y is an atom d, and N / d = N' / d follows from N = N' by ring, or else the
   component by field, where d <> 0 is H.  Proving the components one by one repeats X = Y, the
   largest ring problem in them, for each. *)
Ltac inv_all div char0 H :=
  vm_compute;
  lazymatch type of H with ?Y <> _ =>
    repeat match goal with |- context [div _ ?X] =>
      lazymatch X with Y => fail | _ => replace X with Y by ring end end;
    let d := fresh "d" in revert H; generalize Y; intros d H
  end;
  repeat match goal with |- _ /\ _ => split end;
  first [ reflexivity
        | lazymatch goal with |- div ?a ?x = div ?b ?x => apply (f_equal (fun n => div n x)) | _ => idtac end; ring
        | field; first [ exact H | nz_solve char0 ] ].

(* the k-th conjunct of H, counted from 0; the last one is not the left part of a conjunction *)
Ltac nth_conj k H :=
  lazymatch k with O => first [ exact (proj1 H) | exact H ] | S ?j => nth_conj j (proj2 H) end.
