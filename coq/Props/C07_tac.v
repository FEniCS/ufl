(* C07 - the closing tactics of the hand-written files C07_thms.v, C07_crelle.v, C07_normals.v: the goals
   there are stated over the components of an algebra (Section variables), like the generated ones. *)
Require Export UFLV.Core.Tac.

Ltac rg := norm_goal; ring.
Ltac fd char0 := norm_goal; field; nz_solve char0.
(* the cases of an index i that a hypothesis bounds by a numeral *)
Ltac fin i := destruct i as [|i]; [ | first [ exfalso; lia | fin i ] ].
