(* C23: comparator used by the generated correspondence cases (tie T3): boolean equality of
   expressions modulo the operand order of Sum and Product (their constructors re-sort the operands
   when a node is rebuilt, with a comparator that is the subject of C29, not of C23). *)
Require Import UFLV.Core.Den.
Require Import UFLV.Props.C23_model.
Require Import String.

Fixpoint lnat_eqb (a b : list nat) : bool :=
  match a, b with
  | [], [] => true
  | x :: s, y :: t => Nat.eqb x y && lnat_eqb s t
  | _, _ => false
  end.
Fixpoint lnn_eqb (a b : list (nat * nat)) : bool :=
  match a, b with
  | [], [] => true
  | (x, u) :: s, (y, v) :: t => Nat.eqb x y && Nat.eqb u v && lnn_eqb s t
  | _, _ => false
  end.
Definition idx_eqb (a b : idx) : bool :=
  match a, b with
  | Fixed n, Fixed m => Nat.eqb n m
  | Free n, Free m => Nat.eqb n m
  | _, _ => false
  end.
Fixpoint lidx_eqb (a b : list idx) : bool :=
  match a, b with
  | [], [] => true
  | x :: s, y :: t => idx_eqb x y && lidx_eqb s t
  | _, _ => false
  end.
Definition mathfn_code (f : mathfn) : nat :=
  match f with
  | FSqrt => 0 | FExp => 1 | FLn => 2 | FCos => 3 | FSin => 4 | FTan => 5 | FCosh => 6 | FSinh => 7
  | FTanh => 8 | FAcos => 9 | FAsin => 10 | FAtan => 11 | FErf => 12
  end.
Definition cmpop_code (o : cmpop) : nat :=
  match o with CEQ => 0 | CNE => 1 | CLT => 2 | CGT => 3 | CLE => 4 | CGE => 5 end.
Definition bkind_code (k : bkind) : nat := match k with BJ => 0 | BY => 1 | BI => 2 | BK => 3 end.

Fixpoint eqc (x y : expr) {struct x} : bool :=
  match x with
  | Zero s f => match y with Zero s' f' => lnat_eqb s s' && lnn_eqb f f' | _ => false end
  | IntV a => match y with IntV b => Z.eqb a b | _ => false end
  | RealV m e => match y with RealV m' e' => Z.eqb m m' && Z.eqb e e' | _ => false end
  | CplxV a b c d => match y with CplxV a' b' c' d' => Z.eqb a a' && Z.eqb b b' && Z.eqb c c' && Z.eqb d d' | _ => false end
  | RatV p q => match y with RatV p' q' => Z.eqb p p' && Pos.eqb q q' | _ => false end
  | Identity n => match y with Identity m => Nat.eqb n m | _ => false end
  | PermSym n => match y with PermSym m => Nat.eqb n m | _ => false end
  | Term k i s => match y with Term k' i' s' => Nat.eqb k k' && Nat.eqb i i' && lnat_eqb s s' | _ => false end
  | Sum a b => match y with Sum a' b' => (eqc a a' && eqc b b') || (eqc a b' && eqc b a') | _ => false end
  | Product a b => match y with Product a' b' => (eqc a a' && eqc b b') || (eqc a b' && eqc b a') | _ => false end
  | Division a b => match y with Division a' b' => eqc a a' && eqc b b' | _ => false end
  | Power a b => match y with Power a' b' => eqc a a' && eqc b b' | _ => false end
  | Abs a => match y with Abs a' => eqc a a' | _ => false end
  | Conj a => match y with Conj a' => eqc a a' | _ => false end
  | Real a => match y with Real a' => eqc a a' | _ => false end
  | Imag a => match y with Imag a' => eqc a a' | _ => false end
  | Indexed a mi => match y with Indexed a' mi' => eqc a a' && lidx_eqb mi mi' | _ => false end
  | IndexSum a i d => match y with IndexSum a' i' d' => eqc a a' && Nat.eqb i i' && Nat.eqb d d' | _ => false end
  | ComponentTensor a ix => match y with ComponentTensor a' ix' => eqc a a' && lnn_eqb ix ix' | _ => false end
  | ListTensor es =>
      match y with
      | ListTensor es' =>
          (fix go (l l' : list expr) {struct l} : bool :=
             match l, l' with
             | [], [] => true
             | u :: t, v :: t' => eqc u v && go t t'
             | _, _ => false
             end) es es'
      | _ => false
      end
  | Conditional c t f => match y with Conditional c' t' f' => eqcc c c' && eqc t t' && eqc f f' | _ => false end
  | MinV a b => match y with MinV a' b' => eqc a a' && eqc b b' | _ => false end
  | MaxV a b => match y with MaxV a' b' => eqc a a' && eqc b b' | _ => false end
  | Math f a => match y with Math f' a' => Nat.eqb (mathfn_code f) (mathfn_code f') && eqc a a' | _ => false end
  | Atan2 a b => match y with Atan2 a' b' => eqc a a' && eqc b b' | _ => false end
  | Bessel k a b => match y with Bessel k' a' b' => Nat.eqb (bkind_code k) (bkind_code k') && eqc a a' && eqc b b' | _ => false end
  | Vari a l => match y with Vari a' l' => eqc a a' && Nat.eqb l l' | _ => false end
  | Restricted p a => match y with Restricted p' a' => Bool.eqb p p' && eqc a a' | _ => false end
  | Grad a g => match y with Grad a' g' => eqc a a' && Nat.eqb g g' | _ => false end
  | RefGrad a g => match y with RefGrad a' g' => eqc a a' && Nat.eqb g g' | _ => false end
  | Div a g => match y with Div a' g' => eqc a a' && Nat.eqb g g' | _ => false end
  | NablaGrad a g => match y with NablaGrad a' g' => eqc a a' && Nat.eqb g g' | _ => false end
  | NablaDiv a g => match y with NablaDiv a' g' => eqc a a' && Nat.eqb g g' | _ => false end
  | Curl a => match y with Curl a' => eqc a a' | _ => false end
  | RefValue a s => match y with RefValue a' s' => eqc a a' && lnat_eqb s s' | _ => false end
  | Transposed a => match y with Transposed a' => eqc a a' | _ => false end
  | Outer a b => match y with Outer a' b' => eqc a a' && eqc b b' | _ => false end
  | Inner a b => match y with Inner a' b' => eqc a a' && eqc b b' | _ => false end
  | Dot a b => match y with Dot a' b' => eqc a a' && eqc b b' | _ => false end
  | Cross a b => match y with Cross a' b' => eqc a a' && eqc b b' | _ => false end
  | Perp a => match y with Perp a' => eqc a a' | _ => false end
  | Trace a => match y with Trace a' => eqc a a' | _ => false end
  | Determinant a => match y with Determinant a' => eqc a a' | _ => false end
  | Inverse a => match y with Inverse a' => eqc a a' | _ => false end
  | Cofactor a => match y with Cofactor a' => eqc a a' | _ => false end
  | Deviatoric a => match y with Deviatoric a' => eqc a a' | _ => false end
  | Skew a => match y with Skew a' => eqc a a' | _ => false end
  | Sym a => match y with Sym a' => eqc a a' | _ => false end
  end
with eqcc (x y : cond) {struct x} : bool :=
  match x with
  | Cmp o a b => match y with Cmp o' a' b' => Nat.eqb (cmpop_code o) (cmpop_code o') && eqc a a' && eqc b b' | _ => false end
  | AndC a b => match y with AndC a' b' => eqcc a a' && eqcc b b' | _ => false end
  | OrC a b => match y with OrC a' b' => eqcc a a' && eqcc b b' | _ => false end
  | NotC a => match y with NotC a' => eqcc a a' | _ => false end
  end.

(* handlers with the one-argument signature (self, o) are MultiFunction cutoff types: map_expr_dag does
   not visit their operands.  [check] and [remove] visit every operand, so the model expects none. *)
Definition cc_cutoff_handlers : list String.string := [].
Definition rm_cutoff_handlers : list String.string := [].

Definition ty_code (t : ty) : nat := match t with TReal => 0 | TComplex => 1 | TBool => 2 end.

(* The variant of the analysis as T1 reads it from the live dispatch table: the list [cl] of math-function /
   Bessel node classes whose handler is the constant-"complex" rule (`sqrt` or an alias of it).  ANY subset
   is representable; the theorems of C23_sound.v hold for every cfn / cbs, and their guard [inF] says
   which nodes are covered (a class outside cl must satisfy the real-closure hypothesis okfn / okb). *)
Open Scope string_scope.
Definition mathfn_class (f : mathfn) : string :=
  match f with
  | FSqrt => "Sqrt" | FExp => "Exp" | FLn => "Ln" | FCos => "Cos" | FSin => "Sin" | FTan => "Tan"
  | FCosh => "Cosh" | FSinh => "Sinh" | FTanh => "Tanh" | FAcos => "Acos" | FAsin => "Asin"
  | FAtan => "Atan" | FErf => "Erf"
  end.
Definition bkind_class (k : bkind) : string :=
  match k with BJ => "BesselJ" | BY => "BesselY" | BI => "BesselI" | BK => "BesselK" end.
Definition fn_classes : list string :=
  [ "Sqrt"; "Exp"; "Ln"; "Cos"; "Sin"; "Tan"; "Cosh"; "Sinh"; "Tanh"; "Acos"; "Asin"; "Atan"; "Erf";
    "BesselJ"; "BesselY"; "BesselI"; "BesselK" ].
Definition fn_handlers : list string :=
  [ "sqrt"; "exp"; "ln"; "cos"; "sin"; "tan"; "cosh"; "sinh"; "tanh"; "acos"; "asin"; "atan"; "erf";
    "math_function"; "bessel_function"; "bessel_j"; "bessel_y"; "bessel_i"; "bessel_k" ].
Definition smem (x : string) (l : list string) : bool := existsb (String.eqb x) l.
Definition cfn_cl (cl : list string) (f : mathfn) : bool := smem (mathfn_class f) cl.
Definition cbs_cl (cl : list string) (k : bkind) : bool := smem (bkind_class k) cl.
Definition full_cl : list string := [ "Sqrt"; "Ln"; "Acos"; "Asin"; "BesselJ"; "BesselY"; "BesselI"; "BesselK" ].
Definition pinned_cl : list string := [ "Sqrt" ].
Lemma cfn_cl_full f : cfn_cl full_cl f = cfn_of true f.   Proof. destruct f; reflexivity. Qed.
Lemma cbs_cl_full k : cbs_cl full_cl k = cbs_of true k.   Proof. destruct k; reflexivity. Qed.
Lemma cfn_cl_pinned f : cfn_cl pinned_cl f = cfn_of false f. Proof. destruct f; reflexivity. Qed.
Lemma cbs_cl_pinned k : cbs_cl pinned_cl k = cbs_of false k. Proof. destruct k; reflexivity. Qed.
(* dispatch table of the variant cl *)
Definition cc_dispatch_cl (cl : list string) : list (string * string) :=
  map (fun p : string * string =>
         let (c, h) := p in
         (c, if smem c fn_classes then (if smem c cl then "sqrt" else "expr") else h))
      cc_dispatch0.
(* an alias the model understands: one of the five of the pinned class, or a math-function / Bessel
   handler name bound to the constant-"complex" rule `sqrt` *)
Definition alias_ok (p : string * string) : bool :=
  let (a, b) := p in
  existsb (fun q : string * string => String.eqb a (fst q) && String.eqb b (snd q)) (cc_aliases false)
  || (String.eqb b "sqrt" && smem a fn_handlers).
Close Scope string_scope.

(* model verdict on [inp] agrees with the implementation's verdict / output tree / root nodetype *)
Definition agree_check (cl : list string) (inp : expr) (impl : option (expr * nat)) : bool :=
  match check (cfn_cl cl) (cbs_cl cl) inp, impl with
  | None, None => true
  | Some (o, t), Some (o', t') => eqc o o' && Nat.eqb (ty_code t) t'
  | _, _ => false
  end.
Definition agree_remove (inp : expr) (impl : option expr) : bool :=
  match remove inp, impl with
  | None, None => true
  | Some o, Some o' => eqc o o'
  | _, _ => false
  end.

(* pipeline obligations: an integrand that left complex-mode preprocessing must be accepted by the
   checker as it stands, with every ordering site already of the wrapped shape (C23_wrap); an integrand
   that left real-mode preprocessing contains no Conj / Real / Imag / complex literal *)
Definition pipe_ok (cl : list string) (out : expr) : bool :=
  match check (cfn_cl cl) (cbs_cl cl) out with
  | Some _ => forallb wrapped_site (sites out)
  | None => false
  end.
Definition pipe_clean (out : expr) : bool := cfree out.

(* sanity: the comparator is reflexive on a term using every binder kind, and distinguishes a wrap *)
Example eqc_selftest :
  let e := Conditional (Cmp CLT (Real (Indexed (Term 10 0 [2]) [Fixed 0])) (Zero [] []))
                       (Sum (IntV 1) (Term 1 0 [])) (Product (Term 1 0 []) (RatV 1 2)) in
  eqc e e = true /\
  eqc (Sum (IntV 1) (Term 1 0 [])) (Sum (Term 1 0 []) (IntV 1)) = true /\
  eqc (Real (Term 1 0 [])) (Term 1 0 []) = false.
Proof. vm_compute. repeat split. Qed.
