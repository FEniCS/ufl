(* C02, hand-written part: a Gallina model [gat] of UFL's Gateaux differentiation rule table
   (GenericDerivativeRuleset + GateauxDerivativeRuleset of ufl/algorithms/apply_derivatives.py) and
   the theorem that it computes the true directional derivative for EVERY expression:

     for every UFL algebra, every environment, every derivation G of the algebra that obeys the
     chain rule for each function symbol and commutes with the spatial derivations D j, and every
     description dT of G on terminals (G(w) = v, G(f) = df.v, G(t) = 0):
         den (gat e) c = G (den e c)                 (all e, all components, all field values).

   "d/dtau F(w + tau v) at tau = 0" is exactly such a derivation (of the differential ring of
   fields over a cell); nothing about it is postulated: the laws are Section hypotheses.

   The Grad rule of [gat] is the one of the tree before /repo commit 42592ca: it ignores user-supplied
   coefficient derivatives (it returns 0 for grad(f) although G(f) = df.v; [gradable k id = false]
   for such f).  The theorem is therefore [C02_gateaux_partial] (under [sup e], which demands that
   every Grad is applied to a gradable terminal) and [C02_raises_refuted] exhibits the failure of
   that rule.  With 42592ca the implementation raises for such f, as it does for everything else
   outside [sup]. *)
Require Import UFLV.Core.Facts.

Section Gateaux.
Variable A : ualg.
Add Field AfC02 : (kfield A).
Open Scope K_scope.
Variable env : side -> nat -> nat -> list nat -> A.
Variable D DX : nat -> A -> A.
Variable ki : A.
Notation DEN := (@den A env D DX ki).

Variable G : A -> A.
Hypothesis GD : Derivation G.
Hypothesis G_D : forall j x, G (D j x) = D j (G x).
Hypothesis G_ki : G ki = k0.

Definition c_erf : A := kdyad 5081767996463981 (-52).     (* binary64 2/sqrt(pi) *)
Definition sq (x : A) : A := kpown x 2.
(* right-hand side of the chain rule for function symbol f at x, with gx = G x *)
Definition dvalG (f : mathfn) (x gx : A) : A :=
  match f with
  | FSqrt => gx / (of_Z 2 * kfn FSqrt x)
  | FExp => gx * kfn FExp x
  | FLn => gx / x
  | FCos => gx * (of_Z (-1) * kfn FSin x)
  | FSin => gx * kfn FCos x
  | FTan => gx * (of_Z 1 + sq (kfn FTan x))
  | FCosh => gx * kfn FSinh x
  | FSinh => gx * kfn FCosh x
  | FTanh => gx * (of_Z 1 + of_Z (-1) * sq (kfn FTanh x))
  | FAcos => (of_Z (-1) * gx) / kfn FSqrt (of_Z 1 + of_Z (-1) * sq x)
  | FAsin => gx / kfn FSqrt (of_Z 1 + of_Z (-1) * sq x)
  | FAtan => gx / (of_Z 1 + sq x)
  | FErf => gx * (c_erf * kfn FExp (of_Z (-1) * sq x))
  end.
Hypothesis G_fn : forall f x, G (kfn f x) = dvalG f x (G x).
Hypothesis G_pow : forall x y,
  G (kpow x y) = kpow x (y + of_Z (-1)) * (y * G x + x * kfn FLn x * G y).
Definition sgnv (x : A) : A :=
  kcond (bcmp CEQ x (of_Z 0)) (of_Z 0) (kcond (bcmp CLT x (of_Z 0)) (of_Z (-1)) (of_Z 1)).
Hypothesis G_abs : forall x, G (kabs x) = sgnv (kre x) * G x.
Hypothesis G_atan2 : forall x y,
  G (katan2 x y) = (y * G x + of_Z (-1) * (x * G y)) / (sq x + sq y).
Hypothesis G_min : forall x y, G (kmin x y) = kcond (bcmp CLT x y) (G x) (G y).
Hypothesis G_max : forall x y, G (kmax x y) = kcond (bcmp CGT x y) (G x) (G y).

(* G on terminals, described by expressions (w |-> v, f |-> df.v, other |-> Zero) *)
Variable dT : nat -> nat -> list nat -> expr.
Hypothesis dT_ok : forall s rho k id sh c, DEN s rho (dT k id sh) c = G (env s k id c).
(* terminals whose gradient the Grad rule differentiates correctly: the differentiation
   coefficients and the independent terminals -- NOT coefficients with a user-supplied relation *)
Variable gradable : nat -> nat -> bool.

Definition is_zero (e : expr) : bool := match e with Zero _ _ => true | _ => false end.
Definition sign_e (x : expr) : expr :=
  Conditional (Cmp CEQ x (IntV 0)) (IntV 0) (Conditional (Cmp CLT x (IntV 0)) (IntV (-1)) (IntV 1)).
Definition sq_e (a : expr) : expr := Power a (IntV 2).
Definition dmath (f : mathfn) (a ga : expr) : expr :=
  match f with
  | FSqrt => Division ga (Product (IntV 2) (Math FSqrt a))
  | FExp => Product ga (Math FExp a)
  | FLn => Division ga a
  | FCos => Product ga (Product (IntV (-1)) (Math FSin a))
  | FSin => Product ga (Math FCos a)
  | FTan => Product ga (Sum (IntV 1) (sq_e (Math FTan a)))
  | FCosh => Product ga (Math FSinh a)
  | FSinh => Product ga (Math FCosh a)
  | FTanh => Product ga (Sum (IntV 1) (Product (IntV (-1)) (sq_e (Math FTanh a))))
  | FAcos => Division (Product (IntV (-1)) ga) (Math FSqrt (Sum (IntV 1) (Product (IntV (-1)) (sq_e a))))
  | FAsin => Division ga (Math FSqrt (Sum (IntV 1) (Product (IntV (-1)) (sq_e a))))
  | FAtan => Division ga (Sum (IntV 1) (sq_e a))
  | FErf => Product ga (Product (RealV 5081767996463981 (-52))
                                (Math FExp (Product (IntV (-1)) (sq_e a))))
  end.
Fixpoint grad_chain (e : expr) : option (nat * nat) :=
  match e with Term k id _ => Some (k, id) | Grad a _ => grad_chain a | _ => None end.
(* expressions whose value does not depend on the component asked for: scalar operators, scalar
   terminals (an environment gives a scalar terminal one value), and what is built from them *)
Variable scalar_term : nat -> nat -> bool.
Hypothesis env_scalar : forall s k id c, scalar_term k id = true -> env s k id c = env s k id [].
Fixpoint cfree (e : expr) : bool :=
  match e with
  | Product _ _ | Division _ _ | Power _ _ | Indexed _ _ | Math _ _ | Atan2 _ _ | MinV _ _
  | MaxV _ _ | IntV _ | RealV _ _ | RatV _ _ | CplxV _ _ _ _ | Zero _ _ => true
  | Term k id _ => scalar_term k id
  | Sum a b => cfree a && cfree b
  | Abs a | Conj a | Real a | Imag a | Vari a _ | Restricted _ a | IndexSum a _ _ => cfree a
  | Conditional _ t f => cfree t && cfree f
  | _ => false
  end.

Fixpoint gat (e : expr) : expr :=
  match e with
  | Zero sh fi => Zero sh fi
  | IntV _ | RealV _ _ | CplxV _ _ _ _ | RatV _ _ => Zero [] []
  | Identity n => Zero [n; n] []
  | PermSym n => Zero (repeat n n) []
  | Term k id sh => dT k id sh
  | Sum a b => Sum (gat a) (gat b)
  | Product a b => Sum (Product (gat a) b) (Product a (gat b))
  | Division a b =>
      Division (Sum (gat a) (Product (IntV (-1)) (Product (Division a b) (gat b)))) b
  | Power a b =>
      match b with
      | IntV Z0 => Zero [] []
      | IntV (Zpos p) => Product (Product (gat a) b) (Power a (IntV (Z.pred (Zpos p))))
      | _ =>
          if is_zero (gat b)
          then Product (Product (gat a) b) (Power a (Sum b (IntV (-1))))
          else Product (Power a (Sum b (IntV (-1))))
                       (Sum (Product b (gat a)) (Product (Product a (Math FLn a)) (gat b)))
      end
  | Abs a => Product (sign_e (Real a)) (gat a)
  | Conj a => Conj (gat a)
  | Real a => Real (gat a)
  | Imag a => Imag (gat a)
  | Indexed a mi => Indexed (gat a) mi
  | IndexSum a i d => IndexSum (gat a) i d
  | ComponentTensor a ix => ComponentTensor (gat a) ix
  | ListTensor es => ListTensor (map gat es)
  | Conditional c t f => Conditional c (gat t) (gat f)
  | MinV a b => Conditional (Cmp CLT a b) (gat a) (gat b)
  | MaxV a b => Conditional (Cmp CGT a b) (gat a) (gat b)
  | Math f a => dmath f a (gat a)
  | Atan2 a b =>
      Division (Sum (Product b (gat a)) (Product (IntV (-1)) (Product a (gat b))))
               (Sum (sq_e a) (sq_e b))
  | Vari a _ => gat a
  | Restricted p a => Restricted p (gat a)
  | Grad a g =>
      match grad_chain a with
      | Some (k, id) => if gradable k id then Grad (gat a) g else Zero (shape a ++ [g]) []
      | None => Zero (shape a ++ [g]) []
      end
  | _ => Zero [] []
  end.

(* the expressions the rule table handles (everything else raises in the implementation).  [den]
   evaluates the operands of MinV / MaxV, and the factor sign(Re a) of the Abs rule (it stands under a
   Product), at the component []: these rules are right at every component only for operands whose
   value does not depend on the component ([cfree]). *)
Fixpoint sup (e : expr) : bool :=
  match e with
  | Zero _ _ | IntV _ | RealV _ _ | CplxV _ _ _ _ | RatV _ _ | Identity _ | PermSym _
  | Term _ _ _ => true
  | Sum a b | Product a b | Division a b | Power a b | Atan2 a b => sup a && sup b
  | MinV a b | MaxV a b => (sup a && sup b) && (cfree a && cfree b)
  | Abs a => sup a && cfree a
  | Conj a | Real a | Imag a | Indexed a _ | IndexSum a _ _ | ComponentTensor a _ | Math _ a
  | Vari a _ | Restricted _ a => sup a
  | ListTensor es => forallb sup es
  | Conditional _ t f => sup t && sup f
  | Grad a _ =>
      match grad_chain a with Some (k, id) => gradable k id && sup a | None => false end
  | _ => false
  end.

Lemma den_dmath s rho f a ga c :
  DEN s rho (dmath f a ga) c = dvalG f (DEN s rho a []) (DEN s rho ga []).
Proof. destruct f; reflexivity. Qed.

Lemma is_zero_den e : is_zero e = true -> forall s rho c, DEN s rho e c = k0.
Proof. destruct e; try discriminate. reflexivity. Qed.

Lemma gat_Power a b :
  gat (Power a b) =
  match lit_int b with
  | Some Z0 => Zero [] []
  | Some (Zpos p) => Product (Product (gat a) b) (Power a (IntV (Z.pred (Zpos p))))
  | _ => if is_zero (gat b)
         then Product (Product (gat a) b) (Power a (Sum b (IntV (-1))))
         else Product (Power a (Sum b (IntV (-1))))
                      (Sum (Product b (gat a)) (Product (Product a (Math FLn a)) (gat b)))
  end.
Proof. cbn [gat]. apply lit_int_case. Qed.

Lemma cfree_den e : cfree e = true -> forall s rho c, DEN s rho e c = DEN s rho e [].
Proof.
  induction e; cbn [cfree]; intros Hc; try discriminate Hc; intros s rho cc; bsplit; try reflexivity.
  - apply env_scalar, Hc.
  - rewrite !den_Sum, (IHe1 H s rho cc), (IHe2 H0 s rho cc). reflexivity.
  - rewrite !den_Abs, (IHe Hc s rho cc). reflexivity.
  - rewrite !den_Conj, (IHe Hc s rho cc). reflexivity.
  - rewrite !den_Real, (IHe Hc s rho cc). reflexivity.
  - rewrite !den_Imag, (IHe Hc s rho cc). reflexivity.
  - rewrite !den_IndexSum. apply ksum_ext. intros k _. apply IHe, Hc.
  - rewrite !den_Conditional, (IHe1 H s rho cc), (IHe2 H0 s rho cc). reflexivity.
  - exact (IHe Hc s rho cc).
  - exact (IHe Hc _ rho cc).
Qed.

Lemma grad_chain_sup a : forall k id, grad_chain a = Some (k, id) -> gradable k id = true ->
  sup a = true.
Proof.
  induction a; cbn [grad_chain]; try discriminate; intros k0' id0 E Hg.
  - reflexivity.
  - cbn [sup]. rewrite E, Hg. cbn. eapply IHa; eauto.
Qed.

Theorem C02_gateaux_partial :
  forall e, sup e = true -> forall s rho c, DEN s rho (gat e) c = G (DEN s rho e c).
Proof.
  pose proof (dconst_subfield _ G GD) as C.
  pose proof GD as [Gadd Gmul Gdiv Gconj Gre Gim Gcond].
  fix IH 1. intros e Hs s rho c.
  destruct e; cbn [sup] in Hs; try discriminate Hs.
  (* literals (Zero ... PermSym) are constants of G *)
  1-7: symmetry; apply (den_const_sf A env D DX ki _ C G_ki); reflexivity.
  (* the other cases, in the order of the constructors of [expr] without those that [sup] excludes: G is
     pushed through the operator and the induction hypothesis used on the operands; what results is the
     value of the rule's expression by definition of [gat] and [den] *)
  - (* Term *) apply dT_ok.
  - (* Sum *) bsplit. rewrite den_Sum, Gadd, <- !IH by assumption. reflexivity.
  - (* Product *) bsplit. rewrite den_Product, Gmul, <- !IH by assumption. reflexivity.
  - (* Division *) bsplit. rewrite den_Division, Gdiv, sub_opp_mul, <- !IH by assumption. reflexivity.
  - (* Power *) bsplit.
    rewrite gat_Power, den_Power. destruct (lit_int e2) as [[|p|p]|] eqn:E; cbn [pow_z].
    (* any other exponent: the general rule, with its shortcut when the exponent's derivative is Zero *)
    3,4: rewrite G_pow, <- !IH by assumption; destruct (is_zero (gat e2)) eqn:Ez;
         [rewrite (is_zero_den _ Ez s rho []); cbn [den]; ring | reflexivity].
    + symmetry. apply (sf_1 _ _ C).
    + apply lit_int_Some in E. subst e2.
      rewrite (d_kpown_pos _ G _ (of_Z (Z.pred (Z.pos p))) p GD), <- IH by assumption. reflexivity.
  - (* Abs *) apply andb_prop in Hs as [Hs Hc].
    rewrite den_Abs, (cfree_den e Hc s rho c), G_abs, <- IH by assumption. reflexivity.
  - (* Conj *) rewrite den_Conj, Gconj, <- IH by assumption. reflexivity.
  - (* Real *) rewrite den_Real, Gre, <- IH by assumption. reflexivity.
  - (* Imag *) rewrite den_Imag, Gim, <- IH by assumption. reflexivity.
  - (* Indexed *) exact (IH e Hs s rho _).
  - (* IndexSum *) rewrite den_IndexSum, d_ksum by exact GD. apply ksum_ext. intros k _. apply IH, Hs.
  - (* ComponentTensor *) exact (IH e Hs s _ []).
  - (* ListTensor *) cbn [gat den]. destruct c as [|k c']; [symmetry; apply (sf_0 _ _ C)|].
    revert k. induction es as [|e0 es IHes]; intros k.
    + symmetry; apply (sf_0 _ _ C).
    + cbn [forallb] in Hs. apply andb_prop in Hs. destruct Hs as [Hs0 Hs1].
      destruct k as [|k]; cbn [map]; [apply IH | apply IHes]; assumption.
  - (* Conditional *) bsplit. rewrite den_Conditional, Gcond, <- !IH by assumption. reflexivity.
  - (* MinV: the operands are scalars, so the rule may select between their derivatives at c *)
    apply andb_prop in Hs as [Hs Hc]. apply andb_prop in Hs as [Hs1 Hs2]. apply andb_prop in Hc as [Hc1 Hc2].
    pose proof (IH e1 Hs1 s rho c) as I1. pose proof (IH e2 Hs2 s rho c) as I2.
    rewrite (cfree_den e1 Hc1) in I1. rewrite (cfree_den e2 Hc2) in I2.
    rewrite den_MinV, G_min, <- I1, <- I2. reflexivity.
  - (* MaxV *)
    apply andb_prop in Hs as [Hs Hc]. apply andb_prop in Hs as [Hs1 Hs2]. apply andb_prop in Hc as [Hc1 Hc2].
    pose proof (IH e1 Hs1 s rho c) as I1. pose proof (IH e2 Hs2 s rho c) as I2.
    rewrite (cfree_den e1 Hc1) in I1. rewrite (cfree_den e2 Hc2) in I2.
    rewrite den_MaxV, G_max, <- I1, <- I2. reflexivity.
  - (* Math *) rewrite den_Math, G_fn, <- IH by assumption. apply den_dmath.
  - (* Atan2 *) bsplit. rewrite den_Atan2, G_atan2, <- !IH by assumption. reflexivity.
  - (* Vari *) exact (IH e Hs s rho c).
  - (* Restricted *) exact (IH e Hs _ rho c).
  - (* Grad *) cbn [gat]. destruct (grad_chain e) as [[k id]|] eqn:Eg; [|discriminate Hs].
    apply andb_prop in Hs. destruct Hs as [Hg Hse]. rewrite Hg.
    cbn [den]. destruct (split_last c) as [c' j]. rewrite IH by assumption. symmetry; apply G_D.
Qed.

(* [gat]'s Grad rule returns 0 for a coefficient with a user-supplied relation: whenever the true
   variation of that coefficient has a non-zero gradient, the model's answer (that of the
   implementation before 42592ca) is not the derivative -- although a value is returned, nothing
   raises.  The dimension 2 in the witness is arbitrary: [den] ignores it. *)
Theorem C02_raises_refuted :
  forall k id j s, gradable k id = false ->
  D j (G (env s k id [])) <> k0 ->
  exists e rho c, DEN s rho (gat e) c <> G (DEN s rho e c).
Proof.
  intros k id j s Hg Hnz.
  exists (Grad (Term k id []) 2), (fun _ => 0), [j].
  cbn [gat grad_chain]. rewrite Hg. cbn [den split_last removelast last].
  rewrite G_D. intro E. apply Hnz. symmetry. exact E.
Qed.

End Gateaux.

Print Assumptions C02_gateaux_partial.
Print Assumptions C02_raises_refuted.
