(* C13 - Structural equality, hashing and repr are consistent: class-level model.

   Every terminal / form-level class of UFL defines __eq__ (or .equals), __repr__ and a hash method.
   The T1 translator (py/C13_t1.py) reads these methods with Python's `ast` and emits, per class, a
   [spec]:
     eqs : the conjunction __eq__ returns (one [conj] per compared pair of attribute reads),
     rep : the attribute reads __repr__ renders (the repr string is a function of these),
     hsh : the attribute reads the hash method feeds into hash() (or "hash(repr(self))").
   Attribute VALUES (counts, shapes, domains, function spaces, elements, metadata, operands ...) are
   elements of an abstract type V with Python's == as [veq]; how a value is shown (repr, str,
   format_float, hash(x), x._ufl_hash_data_(), ...) is a "rendering kind" k, and an attribute can be
   compared through a "view" (id_or_none(x), len(x), sorted id items ...).

   Main theorem [wf_consistent]: for EVERY spec that passes the decidable check [wf_spec], and for
   every interpretation of values satisfying the hypotheses (== on attribute values is an
   equivalence; == on a faithful view implies equal rendering), the modelled == is an equivalence
   relation and implies equal repr data and equal hash data.  The generated files prove
   [wf_spec <Class>_spec = true] by computation, so the statement is re-checked against the source on
   every run.  A class whose __eq__ compares a subset of what repr prints fails [wf_spec]; for such a
   spec the generated file proves [refuted_statement] (a counter-model) and [partial_statement]. *)

From Coq Require Import List Bool Arith Sorted.
Import ListNotations.

Inductive owner := Self | Other.

(* view 0: the value itself; 1: id_or_none(x) (object identity / ufl_id); 2: sorted (key, id(value))
   items of a dict; 3: len(x); 4: int(x); >= 5: unknown view *)
(* kind 0: repr(x) / {x!r}; 1: str(x) / {x}; 2: format_float(x); 3: hash(x); 4: x._ufl_hash_data_();
   5: repr of a dict whose insertion order is not canonical (NOT a function of the ==-class: Python
      dicts compare order-insensitively, repr follows insertion order);
   6: the value itself inside hash data; 7: items of a dict with canonical (sorted) insertion order;
   8: ", ".join(map(repr, x)) of a tuple; 9: identity-dependent (see below); >= 10: other pure
   functions of the value (table lookup, truthiness, ...) *)
Inductive conj :=
 | Cmp (ol : owner) (fl vl : nat) (orr : owner) (fr vr : nat)
 | CRepr        (* repr(self) == repr(other) *)
 | CHash.       (* hash(self) == hash(other) / hash data compared *)

Inductive tok := TF (f k : nat) | TSelfId.   (* rendering k of attribute f | id(self) *)

Inductive hspec := HOfRepr | HToks (l : list tok).

Record spec := { eqs : list conj; rep : list tok; hsh : hspec }.

(* kind 9: identity-dependent rendering (id(x), id_or_none(x), (key, id(value)) items): NOT a function
   of the ==-class of x; faithful only under the identity views 1 and 2 *)
Definition kind_faithful (k : nat) : bool := negb (k =? 5) && negb (k =? 9).
Definition faithful (v k : nat) : bool :=
  match v with 0 => kind_faithful k | 1 | 2 => true | _ => false end.

Definition owner_eqb a b := match a, b with Self, Self | Other, Other => true | _, _ => false end.

Definition proper (c : conj) : bool :=
  match c with
  | Cmp Self fl vl Other fr vr | Cmp Other fl vl Self fr vr => (fl =? fr) && (vl =? vr)
  | Cmp _ _ _ _ _ _ => false
  | CRepr | CHash => true
  end.

(* a conjunct that is always true: both sides read the same attribute of the same object *)
Definition trivial (c : conj) : bool :=
  match c with
  | Cmp ol fl vl orr fr vr => owner_eqb ol orr && (fl =? fr) && (vl =? vr)
  | _ => false
  end.

Definition covers (t : tok) (c : conj) : bool :=
  match t, c with
  | TF f k, Cmp Self fl vl Other fr vr | TF f k, Cmp Other fl vl Self fr vr =>
      (f =? fl) && (f =? fr) && (vl =? vr) && faithful vl k
  | _, _ => false
  end.

Definition is_crepr c := match c with CRepr => true | _ => false end.
Definition is_chash c := match c with CHash => true | _ => false end.

Definition covered (s : spec) (t : tok) : bool := existsb (covers t) (eqs s).

Definition wf_spec (s : spec) : bool :=
  forallb proper (eqs s)
  && (existsb is_crepr (eqs s) || forallb (covered s) (rep s))
  && match hsh s with
     | HOfRepr => true
     | HToks l => existsb is_chash (eqs s) || forallb (covered s) l
     end.

Definition partial_ok (s : spec) : bool := forallb (fun c => proper c || trivial c) (eqs s).

Section Generic.
  Variables (O V R : Type).
  Variable fld : O -> nat -> V.            (* attribute f of an object *)
  Variable oid : O -> R.                   (* id(self) *)
  Variable veq : V -> V -> bool.           (* Python == on attribute values *)
  Variable vw : nat -> V -> V.             (* views *)
  Variable rend : nat -> V -> R.           (* renderings *)

  Definition sel (o : owner) (a b : O) := match o with Self => a | Other => b end.
  Definition tokval (o : O) (t : tok) : R :=
    match t with TF f k => rend k (fld o f) | TSelfId => oid o end.
  Definition reprdata (s : spec) (o : O) : list R := map (tokval o) (rep s).
  Definition hashdata (s : spec) (o : O) : list R :=
    match hsh s with HOfRepr => reprdata s o | HToks l => map (tokval o) l end.

  Definition holds (s : spec) (a b : O) (c : conj) : Prop :=
    match c with
    | Cmp ol fl vl orr fr vr => veq (vw vl (fld (sel ol a b) fl)) (vw vr (fld (sel orr a b) fr)) = true
    | CRepr => reprdata s a = reprdata s b
    | CHash => hashdata s a = hashdata s b
    end.

  (* the modelled __eq__ : the conjunction of all conjuncts *)
  Definition eqP (s : spec) (a b : O) : Prop := Forall (holds s a b) (eqs s).

  Definition hyps : Prop :=
    (forall x, veq x x = true) /\
    (forall x y, veq x y = true -> veq y x = true) /\
    (forall x y z, veq x y = true -> veq y z = true -> veq x z = true) /\
    (forall v k, faithful v k = true ->
       forall x y, veq (vw v x) (vw v y) = true -> rend k x = rend k y).

  Definition consistent (s : spec) : Prop :=
    (forall a, eqP s a a) /\
    (forall a b, eqP s a b -> eqP s b a) /\
    (forall a b c, eqP s a b -> eqP s b c -> eqP s a c) /\
    (forall a b, eqP s a b -> reprdata s a = reprdata s b /\ hashdata s a = hashdata s b).

  (* what still holds for a class with always-true conjuncts / uncovered attributes *)
  Definition partially_consistent (s : spec) : Prop :=
    (forall a, eqP s a a) /\
    (forall a b, eqP s a b -> eqP s b a) /\
    (forall a b c, eqP s a b -> eqP s b c -> eqP s a c) /\
    (forall a b, eqP s a b ->
       forall t, covered s t = true -> tokval a t = tokval b t).

  Hypothesis H : hyps.

  Lemma proper_inv c : proper c = true ->
    c = CRepr \/ c = CHash \/ exists f v, c = Cmp Self f v Other f v \/ c = Cmp Other f v Self f v.
  Proof.
    destruct c as [ol fl vl orr fr vr| |]; simpl; auto.
    destruct ol, orr; try discriminate;
    intro E; apply andb_prop in E as [E1 E2];
    apply Nat.eqb_eq in E1, E2; subst; right; right; eauto.
  Qed.

  (* a conjunct that is proper or always true compares one view of one attribute on both sides *)
  Lemma pt_inv c : proper c || trivial c = true ->
    c = CRepr \/ c = CHash \/ exists o o' f v, c = Cmp o f v o' f v.
  Proof.
    destruct c as [ol fl vl orr fr vr| |]; [|auto|auto]. intro E. right. right. exists ol, orr, fl, vl.
    assert (E' : (fl =? fr) && (vl =? vr) = true)
      by (destruct ol, orr; cbn in E; rewrite ?orb_false_r in E; exact E).
    apply andb_prop in E' as [E1 E2]. apply Nat.eqb_eq in E1, E2. subst. reflexivity.
  Qed.

  Lemma pt_equiv s c : proper c || trivial c = true ->
    (forall a, holds s a a c) /\
    (forall a b, holds s a b c -> holds s b a c) /\
    (forall a b d, holds s a b c -> holds s b d c -> holds s a d c).
  Proof.
    destruct H as (Hr & Hs & Ht & _). intro E.
    apply pt_inv in E as [->|[->|(o & o' & f & v & ->)]]; cbn [holds].
    1, 2: repeat split; congruence.
    destruct o, o'; cbn [sel]; repeat split; eauto.
  Qed.

  Lemma equivalence_of_partial s : partial_ok s = true ->
    (forall a, eqP s a a) /\
    (forall a b, eqP s a b -> eqP s b a) /\
    (forall a b c, eqP s a b -> eqP s b c -> eqP s a c).
  Proof.
    unfold partial_ok, eqP. intro P. rewrite forallb_forall in P.
    assert (Q := fun c Hc => pt_equiv s c (P c Hc)).
    assert (At := fun a b (E : Forall (holds s a b) (eqs s)) => proj1 (Forall_forall _ _) E).
    split; [|split]; intros; apply Forall_forall; intros x Hx.
    - apply (proj1 (Q x Hx)).
    - apply (proj1 (proj2 (Q x Hx))), At; assumption.
    - apply (proj2 (proj2 (Q x Hx)) a b c); apply At; assumption.
  Qed.

  Lemma covered_tok s a b t : eqP s a b -> covered s t = true -> tokval a t = tokval b t.
  Proof.
    destruct H as (_ & Hs & _ & Hf).
    unfold eqP, covered. intros E C. apply existsb_exists in C as (c & Hc & Cv).
    pose proof (proj1 (Forall_forall _ _) E c Hc) as Hh.
    destruct t as [f k|]; [|discriminate]. destruct c as [ol fl vl orr fr vr| |]; try discriminate.
    destruct ol, orr; try discriminate; cbn [covers] in Cv;
      apply andb_prop in Cv as [Cv F]; apply andb_prop in Cv as [Cv E3]; apply andb_prop in Cv as [E1 E2];
      apply Nat.eqb_eq in E1, E2, E3; subst; cbn [holds sel] in Hh; cbn [tokval]; eapply Hf; eauto.
  Qed.

  Theorem partial_sound s : partial_ok s = true -> partially_consistent s.
  Proof.
    intro P. destruct (equivalence_of_partial s P) as (A & B & C).
    repeat split; auto. intros. eapply covered_tok; eauto.
  Qed.

  Lemma proper_partial s : forallb proper (eqs s) = true -> partial_ok s = true.
  Proof.
    unfold partial_ok. rewrite !forallb_forall. intros P c Hc. rewrite (P c Hc). reflexivity.
  Qed.

  (* the data [l] renders are equal on ==-objects as soon as == compares them directly (a conjunct
     satisfying [p]) or compares, faithfully, every attribute they are rendered from *)
  Lemma data_eq s a b (p : conj -> bool) (l : list tok) :
    (forall c, p c = true -> holds s a b c -> map (tokval a) l = map (tokval b) l) ->
    eqP s a b -> existsb p (eqs s) || forallb (covered s) l = true ->
    map (tokval a) l = map (tokval b) l.
  Proof.
    intros Hp E W. apply orb_prop in W as [X|X].
    - apply existsb_exists in X as (c & Hc & Pc). apply (Hp c Pc). exact (proj1 (Forall_forall _ _) E c Hc).
    - rewrite forallb_forall in X. apply map_ext_in. intros t Ht. apply (covered_tok s); auto.
  Qed.

  Theorem wf_consistent s : wf_spec s = true -> consistent s.
  Proof.
    unfold wf_spec. intro W. apply andb_prop in W as [W W3]. apply andb_prop in W as [W1 W2].
    destruct (equivalence_of_partial s (proper_partial s W1)) as (A & B & C).
    split; [exact A|]. split; [exact B|]. split; [exact C|]. intros a b E.
    assert (Rp : reprdata s a = reprdata s b).
    { apply (data_eq s a b is_crepr (rep s)); auto. intros [| |] Pc Hc; try discriminate. exact Hc. }
    split; [exact Rp|]. unfold hashdata in *. destruct (hsh s) as [|l] eqn:Hh; [exact Rp|].
    apply (data_eq s a b is_chash l); auto. intros [| |] Pc Hc; try discriminate.
    cbn [holds] in Hc. unfold hashdata in Hc. rewrite Hh in Hc. exact Hc.
  Qed.
End Generic.

(* Statements used by the generated per-class files (closed: quantified over every interpretation) *)

Definition consistent_statement (s : spec) : Prop :=
  forall (O V R : Type) fld oid veq vw rend,
    @hyps V R veq vw rend -> @consistent O V R fld oid veq vw rend s.

Definition partial_statement (s : spec) : Prop :=
  forall (O V R : Type) fld oid veq vw rend,
    @hyps V R veq vw rend -> @partially_consistent O V R fld oid veq vw rend s.

Theorem C13_class_consistent : forall s, wf_spec s = true -> consistent_statement s.
Proof. intros s W O V R fld oid veq vw rend Hy. eapply wf_consistent; eauto. Qed.

Theorem C13_class_partial : forall s, partial_ok s = true -> partial_statement s.
Proof. intros s W O V R fld oid veq vw rend Hy. eapply partial_sound; eauto. Qed.

(* Counter-model for refutations: a value is (==-class, presentation); == looks at the class only;
   faithful renderings show the class only, unfaithful ones also the presentation; the identity-like
   views (1, 2) are injective, unknown views forget everything.  The model satisfies [hyps]. *)

Definition MV := (nat * nat)%type.
Definition m_veq (x y : MV) : bool := fst x =? fst y.
Definition m_vw (v : nat) (x : MV) : MV :=
  match v with
  | 0 => x
  | 1 | 2 => (fst x + (fst x + snd x) * (fst x + snd x + 1), 0)   (* injective on pairs: x + (x+y)(x+y+1) *)
  | _ => (0, 0)
  end.
Definition m_rend (k : nat) (x : MV) : MV := if kind_faithful k then (fst x, 0) else x.
Definition MO := (nat * (nat -> MV))%type.     (* (identity, attributes) *)
Definition m_fld (o : MO) f := snd o f.
Definition m_oid (o : MO) : MV := (fst o, 0).

(* the code lies between the squares of a + b and of its successor *)
Lemma pair_code_sqrt a b : Nat.sqrt (a + (a + b) * (a + b + 1)) = a + b.
Proof.
  apply Nat.sqrt_unique. rewrite Nat.add_1_r, Nat.mul_succ_l, !Nat.mul_succ_r. split.
  - apply (Nat.le_trans _ ((a + b) * (a + b) + (a + b))); [apply Nat.le_add_r | apply Nat.le_add_l].
  - rewrite (Nat.add_comm a). apply Nat.add_lt_mono_l, Nat.lt_succ_r, Nat.le_add_r.
Qed.

Lemma pair_code_inj a b c d :
  a + (a + b) * (a + b + 1) = c + (c + d) * (c + d + 1) -> a = c /\ b = d.
Proof.
  intro E. assert (S : a + b = c + d) by (rewrite <- (pair_code_sqrt a b), E; apply pair_code_sqrt).
  rewrite S in E. apply Nat.add_cancel_r in E. subst c. apply Nat.add_cancel_l in S. auto.
Qed.

Theorem model_hyps : @hyps MV MV m_veq m_vw m_rend.
Proof.
  unfold hyps, m_veq. repeat split.
  - intros. apply Nat.eqb_refl.
  - intros x y E. rewrite Nat.eqb_sym. exact E.
  - intros x y z E1 E2. apply Nat.eqb_eq in E1. rewrite E1. exact E2.
  - intros v k F [x p] [y q] E. apply Nat.eqb_eq in E. unfold m_rend.
    destruct v as [|[|[|v]]]; simpl in *; [rewrite F; simpl; congruence | | | discriminate];
      apply pair_code_inj in E as [-> ->]; reflexivity.
Qed.

Definition refuted_statement (s : spec) : Prop :=
  exists a b : MO,
    @eqP MO MV MV m_fld m_oid m_veq m_vw m_rend s a b /\
    (@reprdata MO MV MV m_fld m_oid m_rend s a <> @reprdata MO MV MV m_fld m_oid m_rend s b \/
     @hashdata MO MV MV m_fld m_oid m_rend s a <> @hashdata MO MV MV m_fld m_oid m_rend s b).

(* a refuted spec is not consistent: the two statements exclude each other *)
Theorem refuted_not_consistent s : refuted_statement s -> ~ consistent_statement s.
Proof.
  intros (a & b & E & D) C.
  destruct (C MO MV MV m_fld m_oid m_veq m_vw m_rend model_hyps) as (_ & _ & _ & X).
  destruct (X a b E) as [X1 X2]. destruct D; contradiction.
Qed.

(* Why rendering kind 5 (repr of a plain dict) is not faithful: Python dict equality ignores the
   insertion order, repr follows it. *)

Definition pdict := list (nat * nat).
Definition dget (d : pdict) (k : nat) : option nat :=
  option_map snd (find (fun kv => fst kv =? k) d).
Definition dsub (d e : pdict) : bool :=
  forallb (fun kv => match dget e (fst kv) with Some v => v =? snd kv | None => false end) d.
Definition dict_eqb (d e : pdict) : bool := (length d =? length e) && dsub d e && dsub e d.
Definition dict_repr (d : pdict) : list (nat * nat) := d.     (* repr lists items in insertion order *)

Theorem C13_dict_eq_repr_refuted :
  exists d e, dict_eqb d e = true /\ dict_repr d <> dict_repr e.
Proof. exists [(0, 1); (1, 2)], [(1, 2); (0, 1)]. split; [reflexivity | discriminate]. Qed.

Theorem C13_dict_eq_repr_partial :
  forall d e, d = e -> dict_repr d = dict_repr e.
Proof. intros; subst; reflexivity. Qed.

Print Assumptions C13_class_consistent.
Print Assumptions C13_class_partial.
Print Assumptions model_hyps.
Print Assumptions refuted_not_consistent.
Print Assumptions C13_dict_eq_repr_refuted.

(* Round trip through __getnewargs__ (pickle protocol 2: cls.__new__(cls, *newargs), and eval(repr)
   for classes whose repr prints exactly the constructor arguments): if the rebuilt object agrees with
   the original on every attribute listed in __getnewargs__, and every attribute that repr / == reads
   is listed there, then the rebuilt object has the same repr data and is == to the original. *)
Definition tok_in_newargs (newargs : list nat) (t : tok) : bool :=
  match t with TF f _ => existsb (Nat.eqb f) newargs | TSelfId => false end.

Definition conj_in_newargs (newargs : list nat) (c : conj) : bool :=
  match c with
  | Cmp _ fl _ _ fr _ => existsb (Nat.eqb fl) newargs && existsb (Nat.eqb fr) newargs
  | CRepr | CHash => true
  end.

Definition newargs_cover (s : spec) (newargs : list nat) : bool :=
  forallb (tok_in_newargs newargs) (rep s) && forallb (conj_in_newargs newargs) (eqs s)
  && match hsh s with HOfRepr => true | HToks l => forallb (tok_in_newargs newargs) l end.

Section RoundTrip.
  Variables (O V R : Type).
  Variable fld : O -> nat -> V.
  Variable oid : O -> R.
  Variable veq : V -> V -> bool.
  Variable vw : nat -> V -> V.
  Variable rend : nat -> V -> R.
  Hypothesis veq_refl : forall x, veq x x = true.

  Lemma in_newargs f l : existsb (Nat.eqb f) l = true -> In f l.
  Proof. intro E. apply existsb_exists in E as (x & I & E). apply Nat.eqb_eq in E. subst. exact I. Qed.

  Theorem C13_roundtrip_newargs : forall s newargs a b,
    newargs_cover s newargs = true ->
    forallb proper (eqs s) = true ->
    (forall f, In f newargs -> fld b f = fld a f) ->
    @reprdata O V R fld oid rend s b = @reprdata O V R fld oid rend s a /\
    @hashdata O V R fld oid rend s b = @hashdata O V R fld oid rend s a /\
    @eqP O V R fld oid veq vw rend s a b.
  Proof.
    intros s newargs a b Cv Pr Ag. unfold newargs_cover in Cv.
    apply andb_prop in Cv as [Cv C3]. apply andb_prop in Cv as [C1 C2].
    assert (Tk : forall l, forallb (tok_in_newargs newargs) l = true ->
                 map (@tokval O V R fld oid rend b) l = map (@tokval O V R fld oid rend a) l).
    { intros l F. rewrite forallb_forall in F. apply map_ext_in. intros t I. specialize (F t I).
      destruct t as [f k|]; simpl in *; [|discriminate]. rewrite (Ag f (in_newargs f newargs F)). reflexivity. }
    assert (Rp : @reprdata O V R fld oid rend s b = @reprdata O V R fld oid rend s a) by (apply Tk; auto).
    assert (Hs : @hashdata O V R fld oid rend s b = @hashdata O V R fld oid rend s a).
    { unfold hashdata. destruct (hsh s); auto. }
    repeat split; auto.
    unfold eqP. apply Forall_forall. intros c I.
    rewrite forallb_forall in C2, Pr. specialize (C2 c I).
    destruct (proper_inv c (Pr c I)) as [->|[->|(f & v & [->| ->])]]; cbn [holds sel]; auto;
      cbn [conj_in_newargs] in C2; apply andb_prop in C2 as [A _];
      rewrite (Ag f (in_newargs f newargs A)); apply veq_refl.
  Qed.
End RoundTrip.

Print Assumptions C13_roundtrip_newargs.

(* repr as a constructor call: what repr prints are the attributes it reads *)
Definition rep_fields (s : spec) : list nat :=
  flat_map (fun t => match t with TF f _ => [f] | TSelfId => [] end) (rep s).

(* Rendering kind 7: a dict printed with its keys in sorted order IS a function of the ==-class of the
   dict.  (Python: {k: d[k] for k in sorted(d)}; model: insertion sort by key of the item list.) *)
Section DictCanonical.
  Fixpoint dins (kv : nat * nat) (l : pdict) : pdict :=
    match l with
    | [] => [kv]
    | x :: t => if fst kv <=? fst x then kv :: l else x :: dins kv t
    end.
  Fixpoint dsort (d : pdict) : pdict := match d with [] => [] | x :: t => dins x (dsort t) end.
  Definition dict_repr_canonical (d : pdict) : list (nat * nat) := dsort d.

  Definition klt (a b : nat * nat) : Prop := fst a < fst b.

  Lemma dins_in kv l x : In x (dins kv l) <-> kv = x \/ In x l.
  Proof.
    induction l as [|y t IH]; cbn [dins In]; [reflexivity|].
    destruct (fst kv <=? fst y); cbn [In]; [reflexivity|]. rewrite IH. split; intros [E|[E|E]]; auto.
  Qed.

  Lemma dsort_in d x : In x (dsort d) <-> In x d.
  Proof. induction d as [|y t IH]; cbn [dsort In]; [tauto|]. rewrite dins_in, IH. tauto. Qed.

  Lemma dins_sorted kv l : StronglySorted klt l -> ~ In (fst kv) (map fst l) -> StronglySorted klt (dins kv l).
  Proof.
    induction 1 as [|y t S IH F]; cbn [dins map In]; intro N.
    - constructor; constructor.
    - rewrite Forall_forall in F. destruct (Nat.leb_spec (fst kv) (fst y)) as [L|L].
      + assert (L' : klt kv y) by (apply Nat.le_neq; split; [exact L | intro E; apply N; left; symmetry; exact E]).
        constructor; [constructor; [exact S | apply Forall_forall, F]|]. constructor; [exact L'|].
        apply Forall_forall. intros z I. exact (Nat.lt_trans _ _ _ L' (F z I)).
      + constructor; [apply IH; intro I; apply N; right; exact I|].
        apply Forall_forall. intros z I. apply dins_in in I as [<-|I]; [exact L | exact (F z I)].
  Qed.

  Lemma dsort_sorted d : NoDup (map fst d) -> StronglySorted klt (dsort d).
  Proof.
    induction d as [|y t IH]; cbn [dsort map]; intro N; [constructor|]. inversion N as [|? ? Ny Nt]; subst.
    apply dins_sorted; [apply IH, Nt|]. intro I. apply Ny. apply in_map_iff in I as (z & E & I).
    apply in_map_iff. exists z. split; [exact E | apply dsort_in, I].
  Qed.

  Lemma sorted_unique : forall l1 l2, StronglySorted klt l1 -> StronglySorted klt l2 ->
    (forall x, In x l1 <-> In x l2) -> l1 = l2.
  Proof.
    induction l1 as [|a t1 IH]; intros [|b t2] S1 S2 E.
    - reflexivity.
    - exfalso. apply (proj2 (E b)). left; auto.
    - exfalso. apply (proj1 (E a)). left; auto.
    - inversion S1 as [|? ? S1' F1]; inversion S2 as [|? ? S2' F2]; subst.
      rewrite Forall_forall in F1, F2.
      (* each head is in the other list; were it in the tail, the heads would be below each other *)
      assert (a = b).
      { destruct (proj1 (E a) (or_introl eq_refl)) as [->|Ia]; auto.
        destruct (proj2 (E b) (or_introl eq_refl)) as [->|Ib]; auto.
        destruct (Nat.lt_asymm _ _ (F1 b Ib) (F2 a Ia)). }
      subst b. f_equal. apply IH; auto. intro x. split; intro I.
      + destruct (proj1 (E x) (or_intror I)) as [->|]; auto. destruct (Nat.lt_irrefl _ (F1 x I)).
      + destruct (proj2 (E x) (or_intror I)) as [->|]; auto. destruct (Nat.lt_irrefl _ (F2 x I)).
  Qed.

  Lemma dget_in e k v : dget e k = Some v -> In (k, v) e.
  Proof.
    unfold dget. destruct (find _ e) as [[k' v']|] eqn:F; simpl; [|discriminate]. intro E. inversion E; subst.
    apply find_some in F as [I K]. simpl in K. apply Nat.eqb_eq in K. subst. exact I.
  Qed.

  Lemma dsub_in d e : dsub d e = true -> forall x, In x d -> In x e.
  Proof.
    unfold dsub. rewrite forallb_forall. intros F [k v] I. specialize (F _ I). simpl in F.
    destruct (dget e k) as [w|] eqn:G; [|discriminate]. apply Nat.eqb_eq in F. subst. apply dget_in; auto.
  Qed.

  (* equal dicts (Python ==) have the same canonical repr, whatever their insertion orders *)
  Theorem C13_dict_canonical_repr : forall d e, NoDup (map fst d) -> NoDup (map fst e) ->
    dict_eqb d e = true -> dict_repr_canonical d = dict_repr_canonical e.
  Proof.
    intros d e Nd Ne E. unfold dict_eqb in E. apply andb_prop in E as [E E2]. apply andb_prop in E as [_ E1].
    apply sorted_unique; try (apply dsort_sorted; auto).
    intro x. rewrite !dsort_in. split; eapply dsub_in; eauto.
  Qed.

  (* and the canonical repr still denotes an equal dict (eval(repr) round trip) *)
  Theorem C13_dict_canonical_same_items : forall d x, In x (dict_repr_canonical d) <-> In x d.
  Proof. intros; apply dsort_in. Qed.
End DictCanonical.

Print Assumptions C13_dict_canonical_repr.
