(* C23: real mode.  C23_remove_value: remove e = Some e' -> den e' c = den e c in every UFL algebra
   in which conjugation and real part are the identity ("real data"), on the fragment inF. *)
Require Import UFLV.Core.Facts.
Require Import UFLV.Props.C21_ind.
Require Import UFLV.Props.C23_model.
Require Import UFLV.Props.C23_syn.
Require Import UFLV.Props.C23_sound.

Section RealMode.
Variable A : ualg.
Variable env : side -> nat -> nat -> list nat -> A.
Variables D DX : nat -> A -> A.
Variable ki : A.
Open Scope K_scope.
Notation DEN := (@den A env D DX ki).
Notation DENC := (@denc A env D DX ki).
(* "real data": conjugation and real part are the identity on every value *)
Hypothesis conj_id : forall x : A, kconj x = x.
Hypothesis re_id : forall x : A, kre x = x.
(* kpow agrees with natural powers on natural-number literals (only used for exponents of the form
   Conj^n/Real^n(integer literal), which the UFL constructors never build) *)
Hypothesis pow_nat : forall (x : A) p, kpow x (of_Z (Zpos p)) = kpown x (Pos.to_nat p).
Hypothesis pow_zero : forall x : A, kpow x (of_Z 0) = k1.

Local Notation deq := (C23_sound.deq A env D DX ki).
Local Notation cong1 := (C23_sound.cong1 A env D DX ki).
Local Notation cong2 := (C23_sound.cong2 A env D DX ki).
Local Notation inFr := (C23_sound.inF (fun _ => true) (fun _ => true) (fun _ => true) true).
Local Notation inFcr := (C23_sound.inFc (fun _ => true) (fun _ => true) (fun _ => true) true).

(* with these hypotheses on kpow a literal exponent needs no separate treatment *)
Lemma cong2_Power : cong2 Power.
Proof.
  intros x x' y y' Ex Ey s rho c.
  rewrite !den_Power, !(pow_z_kpow _ _ _ _ _ _ _ _ _ pow_zero pow_nat), (Ex _ _ _), (Ey _ _ _). reflexivity.
Qed.

(* the output of [remove] has the value of the input *)
Definition pres (r : option expr) (e : expr) : Prop :=
  match r with Some e' => deq e' e | None => True end.

Lemma pres_o1 f ra a : cong1 f -> pres ra a -> pres (o1 f ra) (f a).
Proof. intros Cf. destruct ra as [a'|]; [apply Cf | trivial]. Qed.
Lemma pres_o2 f ra rb a b : cong2 f -> pres ra a -> pres rb b -> pres (o2 f ra rb) (f a b).
Proof. intros Cf. destruct ra as [a'|], rb as [b'|]; try trivial. apply Cf. Qed.
Lemma pres_trans r a e : pres r a -> deq a e -> pres r e.
Proof. destruct r as [a'|]; [|trivial]. intros V E s rho c. rewrite (V _ _ _). apply E. Qed.

Definition Px (e : expr) : Prop := inFr e = true -> pres (remove e) e.
Definition Pc (cn : cond) : Prop :=
  inFcr cn = true ->
  match removec cn with Some c' => forall s rho, DENC s rho c' = DENC s rho cn | None => True end.

Lemma pres_list es : Forall Px es -> forallb inFr es = true ->
  match remove_list es with Some es' => Forall2 deq es' es | None => True end.
Proof.
  induction 1 as [|x es Hx _ IH]; cbn [forallb remove_list]; intros G; [constructor|].
  bsplit. specialize (Hx ltac:(assumption)). specialize (IH ltac:(assumption)).
  destruct (remove x) as [x'|]; [|trivial]. destruct (remove_list es) as [es'|]; [|trivial].
  constructor; assumption.
Qed.

Lemma remove_value : (forall e, Px e) /\ (forall cn, Pc cn).
Proof.
  apply expr_cond_full_ind; unfold Px, Pc; intros;
    lazymatch goal with G : _ = true |- _ => cbn [C23_sound.inF C23_sound.inFc] in G end;
    try discriminate; bsplit; feed_guards; try rewrite remove_ListTensor; cbn [remove removec].
  (* literals and terminals; the complex literal is rejected *)
  1-8: first [exact I | intros s rho c; reflexivity].
  all: try lazymatch goal with
    | |- pres (o1 _ _) _ => refine (pres_o1 _ _ _ _ _); [cong1_tac | auto]
    | |- pres (o2 _ _ _) _ => refine (pres_o2 _ _ _ _ _ _ _ _); [cong2_tac | auto | auto]
    end.
  - (* Power *) apply pres_o2; auto using cong2_Power.
  - (* Conj *) apply pres_trans with a; auto. intros s rho c. symmetry. apply conj_id.
  - (* Real *) apply pres_trans with a; auto. intros s rho c. symmetry. apply re_id.
  - (* Imag *) exact I.
  - (* ListTensor *)
    pose proof (pres_list es H H0) as L. destruct (remove_list es) as [es'|]; [|trivial].
    apply deq_ListTensor, L.
  - (* Conditional *)
    destruct (removec c) as [c'|]; [|trivial]. destruct (remove t) as [t'|]; [|trivial].
    destruct (remove f) as [f'|]; [|trivial].
    intros s rho cc. cbn [den]. rewrite (H _ _), (H0 _ _ _), (H1 _ _ _). reflexivity.
  - (* NablaGrad *)
    refine (pres_o1 _ _ _ _ _); auto.
    intros x y E s rho c. cbn [den]. destruct c; [reflexivity|]. rewrite (E _ _ _). reflexivity.
  - (* Cmp *)
    destruct (remove a) as [a'|]; [|trivial]. destruct (remove b) as [b'|]; [|trivial].
    intros s rho. cbn [denc]. rewrite (H _ _ _), (H0 _ _ _). reflexivity.
  - (* AndC *)
    destruct (removec a) as [a'|]; [|trivial]. destruct (removec b) as [b'|]; [|trivial].
    intros s rho. cbn [denc]. rewrite (H _ _), (H0 _ _). reflexivity.
  - (* OrC *)
    destruct (removec a) as [a'|]; [|trivial]. destruct (removec b) as [b'|]; [|trivial].
    intros s rho. cbn [denc]. rewrite (H _ _), (H0 _ _). reflexivity.
  - (* NotC *)
    destruct (removec a) as [a'|]; [|trivial].
    intros s rho. cbn [denc]. rewrite (H _ _). reflexivity.
Qed.

(* C23_remove_value: real mode leaves the value of every component unchanged for real data *)
Theorem C23_remove_value : forall e e', inF (fun _ => true) (fun _ => true) (fun _ => true) true e = true -> remove e = Some e' ->
  forall s rho c, DEN s rho e' c = DEN s rho e c.
Proof. intros e e' G H. pose proof (proj1 remove_value e G) as V. rewrite H in V. exact V. Qed.
End RealMode.
Print Assumptions C23_remove_value.
