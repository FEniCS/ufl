(* C07, hand-written part 2: the vertex-level definitions of C07_spec.v are the geometric ones.
   All statements are for ALL vertex positions over an arbitrary UFL algebra (given by its
   components, as in the generated files, so that ring/field see variables; every [ualg] is
   [Build_ualg] of its components).  sqrt and abs are uninterpreted in the algebra; the few facts
   needed about them enter as premises on the specific arguments
   ([sq_ok X : sqrt X * sqrt X = X], [abs_sq : abs x * abs x = x * x]), which hold in the reals for
   the sums of squares they are applied to. *)
Require Import UFLV.Props.C07_tac UFLV.Props.C06_spec UFLV.Props.C09_algebra UFLV.Props.C07_spec.

Section Thms.
Variable KT : Type.
Variables (z0 z1 : KT) (add mul sub : KT -> KT -> KT) (opp : KT -> KT) (div : KT -> KT -> KT) (inv : KT -> KT).
Hypothesis Fth : field_theory z0 z1 add mul sub opp div inv (@eq KT).
Variables (conj re im abs : KT -> KT) (fn : mathfn -> KT -> KT) (pow atan2 : KT -> KT -> KT)
          (bessel : bkind -> KT -> KT -> KT).
Variable BT : Type.
Variables (cmp : cmpop -> KT -> KT -> BT) (and_ or_ : BT -> BT -> BT) (not_ : BT -> BT)
          (cond_ : BT -> KT -> KT -> KT) (min_ max_ : KT -> KT -> KT).
Definition A : ualg :=
  Build_ualg KT z0 z1 add mul sub opp div inv Fth conj re im abs fn pow atan2 bessel
             BT cmp and_ or_ not_ cond_ min_ max_.
Add Field FfC07 : Fth.
Hypothesis char0 : forall p, @of_pos A p <> z0.

Variable V : nat -> nat -> KT.
Variable co : KT.

Notation Jm := (Jm A V).
Notation det := (@Den.det A).
Notation gram := (@Den.gram A).
Notation ksum := (@Alg.ksum A).
Notation sqrt_ := (fn FSqrt).
Notation nrm2 := (nrm2 A).
Notation dotp := (dotp A).
Definition sq_ok (x : KT) : Prop := mul (sqrt_ x) (sqrt_ x) = x.
Definition abs_sq : Prop := forall x : KT, mul (abs x) (abs x) = mul x x.

(* ---- Gram determinants -------------------------------------------------------------------- *)
(* 1 column: |a|^2;  2 columns: Lagrange |a|^2 |b|^2 - (a.b)^2;  square: (det)^2;  3x2: |a x b|^2 *)
Theorem gram_det_1 g (M : nat -> nat -> KT) : 1 <= g <= 3 ->
  det 1 (gram g M) = nrm2 g (fun i => M i 0).
Proof. intros Hg. assert (Hc : g = 1 \/ g = 2 \/ g = 3) by lia. destruct Hc as [Hc|[Hc|Hc]]; subst g; rg. Qed.
Theorem gram_det_2 g (M : nat -> nat -> KT) : 2 <= g <= 3 ->
  det 2 (gram g M) = sub (mul (nrm2 g (fun i => M i 0)) (nrm2 g (fun i => M i 1)))
                         (mul (dotp g (fun i => M i 0) (fun i => M i 1)) (dotp g (fun i => M i 0) (fun i => M i 1))).
Proof. intros Hg. assert (Hc : g = 2 \/ g = 3) by lia. destruct Hc as [Hc|Hc]; subst g; rg. Qed.
Theorem gram_det_square n (M : nat -> nat -> KT) : 1 <= n <= 3 ->
  det n (gram n M) = mul (det n M) (det n M).
Proof. intros Hn. assert (Hc : n = 1 \/ n = 2 \/ n = 3) by lia. destruct Hc as [Hc|[Hc|Hc]]; subst n; rg. Qed.
Theorem gram_det_cross (M : nat -> nat -> KT) :
  det 2 (gram 3 M) = nrm2 3 (cross3 A (fun i => M i 0) (fun i => M i 1)).
Proof. rg. Qed.

(* ---- (pseudo-)inverse: pinv M is a left inverse of M; it annihilates the normal ------------- *)
Theorem pinv_left_square n M i j : 1 <= n <= 3 -> i < n -> j < n -> det n M <> z0 ->
  ksum n (fun k => mul (pinv A n n M i k) (M k j)) = delta A i j.
Proof.
  intros Hn Hi Hj H. unfold pinv. rewrite Nat.eqb_refl.
  apply (inverse_spec_upto4 A n M i j); [lia | assumption..].
Qed.
Theorem pinv_right_square n M i j : 1 <= n <= 3 -> i < n -> j < n -> det n M <> z0 ->
  ksum n (fun k => mul (M i k) (pinv A n n M k j)) = delta A i j.
Proof.
  intros Hn Hi Hj H. unfold pinv. rewrite Nat.eqb_refl.
  apply (inverse_spec_right A n M i j); [lia | assumption..].
Qed.
Theorem pinv_left_g1 g M : 2 <= g <= 3 -> det 1 (gram g M) <> z0 ->
  ksum g (fun k => mul (pinv A g 1 M 0 k) (M k 0)) = z1.
Proof.
  intros Hg H. unfold pinv. replace (Nat.eqb 1 g) with false by (symmetry; apply Nat.eqb_neq; lia).
  apply (pseudo_inverse_left A g 1 M 0 0); [lia | assumption | lia..].
Qed.
Theorem pinv_left_32 M i j : i < 2 -> j < 2 -> det 2 (gram 3 M) <> z0 ->
  ksum 3 (fun k => mul (pinv A 3 2 M i k) (M k j)) = delta A i j.
Proof. intros Hi Hj H. apply (pseudo_inverse_left A 3 2 M i j); [lia | assumption..]. Qed.
Theorem pinv_32_kills_normal M i : i < 2 -> det 2 (gram 3 M) <> z0 ->
  ksum 3 (fun k => mul (pinv A 3 2 M i k) (cross3 A (fun r => M r 0) (fun r => M r 1) k)) = z0.
Proof. intros Hi H. norm_hyp H. fin i; fd char0. Qed.

(* ---- cell volume: vol = abs(r0 * detJ); its square is the Gram determinant over (t!)^2 ------- *)
Theorem vol_sq_square t : abs_sq ->
  mul (vol A V co t t) (vol A V co t t) = mul (mul (r0 A t) (r0 A t)) (mul (det t Jm) (det t Jm)).
Proof.
  intros Habs. unfold vol. change (@kabs A) with abs. rewrite Habs.
  unfold detJ. rewrite Nat.eqb_refl. change (@kmul A) with mul. ring.
Qed.
Theorem vol_sq_immersed t g : t < g -> abs_sq -> mul co co = z1 -> sq_ok (det t (gram g Jm)) ->
  mul (vol A V co t g) (vol A V co t g) = mul (mul (r0 A t) (r0 A t)) (det t (gram g Jm)).
Proof.
  intros Htg Habs Hco Hs. unfold vol. change (@kabs A) with abs. rewrite Habs. unfold detJ.
  replace (Nat.eqb t g) with false by (symmetry; apply Nat.eqb_neq; lia).
  unfold sq_ok in Hs. change (@kmul A) with mul. unfold ksqrt. change (@kfn A) with fn.
  set (s := sqrt_ (det t (gram g Jm))) in *. set (r := r0 A t).
  transitivity (mul (mul r r) (mul (mul co co) (mul s s))); [ring|]. rewrite Hco, Hs. ring.
Qed.

(* ---- circumradius of a triangle (gdim 2 or 3) ----------------------------------------------- *)
(* circumcentre c = v0 + alpha a + beta b with a = v1 - v0, b = v2 - v0,
   alpha = q(p-r)/(2G), beta = p(q-r)/(2G), p = a.a, q = b.b, r = a.b, G = pq - r^2 *)
Definition tri_centre (g i : nat) : KT :=
  let a k := sub (V 1 k) (V 0 k) in
  let b k := sub (V 2 k) (V 0 k) in
  let p := nrm2 g a in let q := nrm2 g b in let r := dotp g a b in
  let G := sub (mul p q) (mul r r) in
  add (add (V 0 i) (mul (div (mul q (sub p r)) (mul (add z1 z1) G)) (a i)))
      (mul (div (mul p (sub q r)) (mul (add z1 z1) G)) (b i)).
Definition dist2 (g : nat) (c : nat -> KT) (k : nat) : KT := nrm2 g (fun i => sub (c i) (V k i)).

Lemma sq_quot (l1 l2 l3 v c : KT) : v <> z0 -> c <> z0 ->
  mul (div (mul (mul l1 l2) l3) (mul c v)) (div (mul (mul l1 l2) l3) (mul c v))
  = div (mul (mul (mul l1 l1) (mul l2 l2)) (mul l3 l3)) (mul (mul c c) (mul v v)).
Proof. intros Hv Hc. field. split; assumption. Qed.

Lemma circ_tri_unfold g :
  vol A V co 2 g <> z0 ->
  sq_ok (nrm2 g (vvec A V 1 2)) -> sq_ok (nrm2 g (vvec A V 0 2)) -> sq_ok (nrm2 g (vvec A V 0 1)) ->
  mul (circ A V co 2 g) (circ A V co 2 g) =
    div (mul (mul (nrm2 g (vvec A V 1 2)) (nrm2 g (vvec A V 0 2))) (nrm2 g (vvec A V 0 1)))
        (mul (mul (@of_nat A 4) (@of_nat A 4)) (mul (vol A V co 2 g) (vol A V co 2 g))).
Proof.
  intros Hv H12 H02 H01. unfold circ, vlen, ksqrt. unfold sq_ok in *.
  change (@kfn A) with fn. change (@kmul A) with mul. change (@kdiv A) with div.
  rewrite sq_quot; [ | exact Hv | intro E; apply (char0 4%positive); exact E ].
  rewrite H12, H02, H01. reflexivity.
Qed.

(* |v0 + x a + y b - v_k|^2 is the quadratic form of p = a.a, q = b.b, r = a.b at (x, y) minus the k-th unit
   vector; so that the centre is equidistant from the vertices, at the distance the lowered formula gives, is an
   identity between rational functions of p, q, r alone, whatever the dimension *)
Definition al_of (p q r : KT) : KT := div (mul q (sub p r)) (mul (add z1 z1) (sub (mul p q) (mul r r))).
Definition be_of (p q r : KT) : KT := div (mul p (sub q r)) (mul (add z1 z1) (sub (mul p q) (mul r r))).
Definition qf (x y p q r : KT) : KT :=
  add (add (mul (mul x x) p) (mul (mul (add z1 z1) (mul x y)) r)) (mul (mul y y) q).

Lemma tri_dist_lin g k (x y : KT) : 2 <= g <= 3 -> k < 3 ->
  nrm2 g (fun i => sub (add (add (V 0 i) (mul x (Jm i 0))) (mul y (Jm i 1))) (V k i))
  = qf (match k with 1 => sub x z1 | _ => x end) (match k with 2 => sub y z1 | _ => y end)
       (nrm2 g (fun i => Jm i 0)) (nrm2 g (fun i => Jm i 1)) (dotp g (fun i => Jm i 0) (fun i => Jm i 1)).
Proof. intros Hg Hk. assert (Hc : g = 2 \/ g = 3) by lia. destruct Hc; subst g; fin k; rg. Qed.

Lemma side12 g : 2 <= g <= 3 ->
  nrm2 g (vvec A V 1 2) = sub (add (nrm2 g (fun i => Jm i 0)) (nrm2 g (fun i => Jm i 1)))
                              (mul (add z1 z1) (dotp g (fun i => Jm i 0) (fun i => Jm i 1))).
Proof. intros Hg. assert (Hc : g = 2 \/ g = 3) by lia. destruct Hc; subst g; rg. Qed.

Lemma tri_alg (p q r n12 G : KT) k : k < 3 ->
  n12 = sub (add p q) (mul (add z1 z1) r) -> G = sub (mul p q) (mul r r) -> G <> z0 ->
  div (mul (mul n12 q) p) (mul (mul (@of_nat A 4) (@of_nat A 4)) (mul (mul (r0 A 2) (r0 A 2)) G))
  = qf (match k with 1 => sub (al_of p q r) z1 | _ => al_of p q r end)
       (match k with 2 => sub (be_of p q r) z1 | _ => be_of p q r end) p q r.
Proof. intros Hk -> -> HG. unfold qf, al_of, be_of. fin k; fd char0. Qed.

Lemma circ_tri_core g k : 2 <= g <= 3 -> k < 3 -> det 2 (gram g Jm) <> z0 ->
  div (mul (mul (nrm2 g (vvec A V 1 2)) (nrm2 g (vvec A V 0 2))) (nrm2 g (vvec A V 0 1)))
      (mul (mul (@of_nat A 4) (@of_nat A 4)) (mul (mul (r0 A 2) (r0 A 2)) (det 2 (gram g Jm))))
  = dist2 g (tri_centre g) k.
Proof.
  intros Hg Hk HG.
  etransitivity; [exact (tri_alg _ _ _ _ _ k Hk (side12 g Hg) (gram_det_2 g Jm ltac:(lia)) HG)|].
  symmetry. exact (tri_dist_lin g k _ _ Hg Hk).
Qed.

(* the circumradius formula of the lowered code, squared, is the squared distance of the
   circumcentre from each of the three vertices *)
Theorem circ_triangle_2 k : k < 3 ->
  abs_sq -> det 2 Jm <> z0 -> vol A V co 2 2 <> z0 ->
  sq_ok (nrm2 2 (vvec A V 1 2)) -> sq_ok (nrm2 2 (vvec A V 0 2)) -> sq_ok (nrm2 2 (vvec A V 0 1)) ->
  mul (circ A V co 2 2) (circ A V co 2 2) = dist2 2 (tri_centre 2) k.
Proof.
  intros Hk Habs Hd Hv H12 H02 H01. rewrite circ_tri_unfold, vol_sq_square by assumption.
  rewrite <- (gram_det_square 2 Jm) by lia. apply circ_tri_core; [lia | exact Hk | ].
  rewrite gram_det_square by lia. apply (mul_nz A); exact Hd.
Qed.

Theorem circ_triangle_3 k : k < 3 ->
  abs_sq -> mul co co = z1 -> det 2 (gram 3 Jm) <> z0 -> vol A V co 2 3 <> z0 ->
  sq_ok (det 2 (gram 3 Jm)) ->
  sq_ok (nrm2 3 (vvec A V 1 2)) -> sq_ok (nrm2 3 (vvec A V 0 2)) -> sq_ok (nrm2 3 (vvec A V 0 1)) ->
  mul (circ A V co 2 3) (circ A V co 2 3) = dist2 3 (tri_centre 3) k.
Proof.
  intros Hk Habs Hco Hd Hv HG H12 H02 H01.
  rewrite circ_tri_unfold, vol_sq_immersed by (assumption || lia).
  apply circ_tri_core; (lia || assumption).
Qed.

End Thms.

Print Assumptions gram_det_2.
Print Assumptions pinv_left_32.
Print Assumptions vol_sq_immersed.
Print Assumptions circ_triangle_2.
Print Assumptions circ_triangle_3.
