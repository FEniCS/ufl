(* C20 - type dispatch under later registration of expression types.

   State machine over: the live class registry (UFLType._ufl_all_classes_, index = typecode), the
   snapshot `ufl.classes.all_ufl_classes` taken at import, and the per-algorithm-class handler-table
   caches (MultiFunction._handlers_cache / Transformer._handlers_cache, keyed by the algorithm class).
   The cache policy of each of the two `__init__`s is a parameter extracted from the source (T1):
     validate_len  - a cached table is recomputed when its length differs from the registry's;
     live_registry - tables are computed over the live registry (not the import-time snapshot).
   Operations: Register (a new @ufl_type class, given by the handler names along its mro),
   Instantiate alg, Apply alg typecode (= instantiate and dispatch on a typecode).
   `None` as an Apply result is Python's IndexError. *)
Require Import List PeanoNat NArith Bool.
Require Import UFLV.Props.C19_dispatch.
Import ListNotations.

(* MultiFunction subclasses, Transformer subclasses, plain functions passed to map_expr_dag(s) *)
Inductive kind := MF | TR | FN.
Record alg := mkalg { a_id : nat; a_kind : kind; a_has : list N }.

Lemma alg_eq_dec : forall a b : alg, {a = b} + {a <> b}.
Proof.
  decide equality; [apply (list_eq_dec N.eq_dec)|decide equality|apply Nat.eq_dec].
Defined.

Record policy := mkpol { validate_len : bool; live_registry : bool }.

Definition registry := list (list N).
Definition table := list (option N).
Record state := mkst { reg : registry; snapshot : registry; cache : list (alg * table) }.
Inductive op := Register (mro : list N) | Instantiate (a : alg) | Apply (a : alg) (tc : nat).

(* the table C19's dispatch theorem specifies for registry r *)
Definition fresh (a : alg) (r : registry) : table := map (resolve (hasl (a_has a))) r.

Fixpoint clookup (a : alg) (c : list (alg * table)) : option table :=
  match c with
  | [] => None
  | (b, t) :: rest => if alg_eq_dec a b then Some t else clookup a rest
  end.

Definition reg_next (r : registry) (o : op) : registry :=
  match o with Register m => r ++ [m] | _ => r end.

(* what C19 specifies: dispatch over the registry as it is when Apply runs *)
Fixpoint spec_outputs (h : list op) (r : registry) : list (option (option N)) :=
  match h with
  | [] => []
  | o :: rest => (match o with Apply a tc => [nth_error (fresh a r) tc] | _ => [] end)
                 ++ spec_outputs rest (reg_next r o)
  end.

Fixpoint no_register (h : list op) : Prop :=
  match h with [] => True | Register _ :: _ => False | _ :: r => no_register r end.

Section Model.
Variable pol : kind -> policy.

Definition source (st : state) (a : alg) : registry :=
  if live_registry (pol (a_kind a)) then reg st else snapshot st.

(* `__init__`: look up the class-level cache, (re)compute and store if absent [or stale].  The cache is a
   dict: storing overwrites, which is a new entry in front, since [clookup] returns the first. *)
Definition instantiate (st : state) (a : alg) : state * table :=
  let t' := fresh a (source st a) in
  let recompute := (mkst (reg st) (snapshot st) ((a, t') :: cache st), t') in
  match clookup a (cache st) with
  | Some t => if validate_len (pol (a_kind a)) && negb (Nat.eqb (length t) (length (reg st)))
              then recompute else (st, t)
  | None => recompute
  end.

Definition next (st : state) (o : op) : state :=
  match o with
  | Register m => mkst (reg st ++ [m]) (snapshot st) (cache st)
  | Instantiate a => fst (instantiate st a)
  | Apply a _ => fst (instantiate st a)
  end.

Fixpoint outputs (h : list op) (st : state) : list (option (option N)) :=
  match h with
  | [] => []
  | o :: rest => (match o with Apply a tc => [nth_error (snd (instantiate st a)) tc] | _ => [] end)
                 ++ outputs rest (next st o)
  end.

Lemma reg_instantiate : forall st a, reg (fst (instantiate st a)) = reg st.
Proof.
  intros. unfold instantiate. destruct (clookup a (cache st)); simpl; auto.
  destruct (validate_len _ && _); auto.
Qed.

Lemma reg_next_eq : forall st o, reg (next st o) = reg_next (reg st) o.
Proof. intros st [m|a|a tc]; simpl; auto using reg_instantiate. Qed.

(* Inv (strong): every cached table is the freshly computed one *)
Definition Inv (st : state) : Prop := forall a t, clookup a (cache st) = Some t -> t = fresh a (reg st).
(* InvPrefix: every cached table is the fresh table of a prefix of the (append-only) registry *)
Definition InvPrefix (st : state) : Prop :=
  forall a t, clookup a (cache st) = Some t -> t = fresh a (firstn (length t) (reg st)).
Definition src_ok (st : state) : Prop := forall a, source st a = reg st.

Lemma fresh_length : forall a r, length (fresh a r) = length r.
Proof. intros. apply map_length. Qed.

Lemma fresh_prefix : forall a t r, t = fresh a (firstn (length t) r) -> length t = length r -> t = fresh a r.
Proof. intros a t r H E. rewrite E, firstn_all in H. exact H. Qed.

(* A cached table can be trusted when it is the fresh table of a prefix of the registry and, unless
   the policy of its algorithm class compares lengths, of the whole registry. *)
Definition Good (st : state) : Prop :=
  src_ok st /\
  forall a t, clookup a (cache st) = Some t ->
    t = fresh a (firstn (length t) (reg st)) /\
    (validate_len (pol (a_kind a)) = false -> length t = length (reg st)).

Lemma instantiate_Good : forall st a, Good st ->
  snd (instantiate st a) = fresh a (reg st) /\ Good (fst (instantiate st a)).
Proof.
  intros st a [Hs HI]. unfold instantiate. rewrite (Hs a).
  assert (Hnew : Good (mkst (reg st) (snapshot st) ((a, fresh a (reg st)) :: cache st))).
  { split; [exact Hs|]. intros b t. simpl. destruct (alg_eq_dec b a) as [->|Hn]; [|apply HI].
    intros H; inversion H; subst. rewrite fresh_length, firstn_all. split; reflexivity. }
  destruct (clookup a (cache st)) as [t|] eqn:E; [|split; [reflexivity|exact Hnew]].
  destruct (validate_len (pol (a_kind a)) && negb (Nat.eqb (length t) (length (reg st)))) eqn:Ev;
    [split; [reflexivity|exact Hnew]|].
  split; [|split; assumption]. destruct (HI a t E) as [Ht Hl]. apply (fresh_prefix a t _ Ht).
  apply andb_false_iff in Ev. destruct Ev as [Ev|Ev]; [exact (Hl Ev)|].
  apply Nat.eqb_eq. destruct (Nat.eqb _ _); [reflexivity|discriminate].
Qed.

(* the registry is append-only, so prefixes stay prefixes; the full-length clause survives only under
   a policy that compares lengths and reads the live registry *)
Lemma register_Good : forall st m, (forall k, validate_len (pol k) = true /\ live_registry (pol k) = true) ->
  Good st -> Good (mkst (reg st ++ [m]) (snapshot st) (cache st)).
Proof.
  intros st m Hp [_ HI]. split.
  - intros a. unfold source. rewrite (proj2 (Hp (a_kind a))). reflexivity.
  - intros a t E. simpl in *. destruct (HI a t E) as [Ht _]. split.
    + assert (Hl : length t <= length (reg st)).
      { apply (f_equal (@length _)) in Ht. rewrite fresh_length, firstn_length in Ht.
        rewrite Ht. apply Nat.le_min_r. }
      rewrite firstn_app. rewrite (proj2 (Nat.sub_0_le _ _) Hl).
      simpl. rewrite app_nil_r. exact Ht.
    + rewrite (proj1 (Hp (a_kind a))). discriminate.
Qed.

(* For EVERY history, every Apply returns what C19's dispatch specifies for the registry at that
   moment - independently of all earlier Instantiates - provided that nothing is registered after the
   first use, or that the policy compares lengths against the live registry. *)
Theorem outputs_spec : forall h st, Good st ->
  no_register h \/ (forall k, validate_len (pol k) = true /\ live_registry (pol k) = true) ->
  outputs h st = spec_outputs h (reg st).
Proof.
  induction h as [|o rest IH]; intros st HG Hh; simpl; auto.
  rewrite <- reg_next_eq. destruct o as [m|a|a tc]; simpl.
  - destruct Hh as [[]|Hp]. apply IH; [apply register_Good; assumption|right; exact Hp].
  - apply IH; [apply instantiate_Good, HG|exact Hh].
  - destruct (instantiate_Good st a HG) as [-> HG']. f_equal. apply IH; assumption.
Qed.

Hypothesis good : forall k, validate_len (pol k) = true /\ live_registry (pol k) = true.

(* C20 in full, for a policy that validates the cached table against the live registry: [outputs_spec]
   without the condition on the history *)
Theorem C20_history : forall h st, InvPrefix st -> outputs h st = spec_outputs h (reg st).
Proof.
  intros h st HI. apply outputs_spec; [|right; exact good]. split.
  - intros a. unfold source. rewrite (proj2 (good (a_kind a))). reflexivity.
  - intros a t E. split; [exact (HI a t E)|]. rewrite (proj1 (good (a_kind a))). discriminate.
Qed.
End Model.

Theorem C20_history_partial : forall pol h st, Inv st -> src_ok pol st -> no_register h ->
  outputs pol h st = spec_outputs h (reg st).
Proof.
  intros pol h st HI Hs Hn. apply outputs_spec; [|left; exact Hn]. split; [exact Hs|].
  intros a t E. rewrite (HI a t E), fresh_length, firstn_all. split; reflexivity.
Qed.

(* all registrations before the first use of any algorithm class: fine for live-registry policies *)
Theorem C20_history_partial_registers_first : forall pol, (forall k, live_registry (pol k) = true) ->
  forall regs h st, cache st = [] -> no_register h ->
  outputs pol (map Register regs ++ h) st = spec_outputs (map Register regs ++ h) (reg st).
Proof.
  intros pol Hlive. induction regs as [|m regs IH]; intros h st Hc Hn.
  - simpl. apply C20_history_partial; auto.
    + intros a t. rewrite Hc. discriminate.
    + intros a. unfold source. rewrite Hlive. reflexivity.
  - simpl. rewrite (IH h (mkst (reg st ++ [m]) (snapshot st) (cache st))); auto.
Qed.

(* handler names: 0 = ufl_type (default), 1 = expr, 2 = sum, 3 = new_op *)
Definition w_reg : registry := [[1; 0]; [2; 1; 0]]%N.
Definition w_st : state := mkst w_reg w_reg [].
Definition w_alg (k : kind) : alg := mkalg 0 k [1; 0]%N.
Definition w_hist (k : kind) : list op := [Instantiate (w_alg k); Register [3; 1; 0]%N; Apply (w_alg k) 2].

(* without the length test: the table cached by the Instantiate has two entries, the class registered
   afterwards has typecode 2, and the Apply indexes the stale table out of range (IndexError) where
   the specification dispatches new_op to `expr` *)
Theorem C20_history_refuted : forall pol k, validate_len (pol k) = false ->
  InvPrefix w_st /\ Inv w_st /\
  outputs pol (w_hist k) w_st = [None] /\
  spec_outputs (w_hist k) (reg w_st) = [Some (Some 1%N)].
Proof.
  intros pol k Hv. repeat split; try (intros a t H; discriminate).
  destruct k;
    match type of Hv with context [pol ?K0] => destruct (pol K0) as [v l] eqn:E end;
    simpl in Hv; subst v; cbv; rewrite !E; destruct l; reflexivity.
Qed.

(* a policy that computes tables over the import-time snapshot fails even when the registration
   precedes every use *)
Definition w_hist2 (k : kind) : list op := [Register [3; 1; 0]%N; Apply (w_alg k) 2].

Theorem C20_history_refuted_snapshot : forall pol k, live_registry (pol k) = false ->
  outputs pol (w_hist2 k) w_st = [None] /\
  spec_outputs (w_hist2 k) (reg w_st) = [Some (Some 1%N)].
Proof.
  intros pol k Hl. split; [|reflexivity].
  destruct k;
    match type of Hl with context [pol ?K0] => destruct (pol K0) as [v l] eqn:E end;
    simpl in Hl; subst l; cbv; rewrite !E; reflexivity.
Qed.

Print Assumptions C20_history.
Print Assumptions C20_history_partial.
Print Assumptions C20_history_partial_registers_first.
Print Assumptions C20_history_refuted.
Print Assumptions C20_history_refuted_snapshot.
