(* C21 - the tactic of the generated obligations den (replace e m) c = den (e with the images written in) c
   (coq/Gen/C21*_t2_*.v).

   replace is a substitution, so the two sides evaluate to the same expression up to the order in which the
   constructors of the image put their operands.  The generated files have the header of the C03 files; K U V
   E are the groups of Section variables that header binds for Props/C03_tac.v. *)
Require Import UFLV.Core.Tac UFLV.Props.C03_tac.

(* Evaluate; equal as they stand, or by ring, or by ring once applications of the other operations whose
   arguments are equal have one name.  Only a literal image under a derivative needs more: the constructor
   has folded its derivative to zero, and [deriv] (the closing tactic of C03) finds that with the derivation
   laws.  It comes last, so that an obligation that holds without those laws does not rest on them. *)
Ltac subst_close K U V E deriv :=
  norm_goal;
  first [ reflexivity | ring | name_atoms K U V E; first [ reflexivity | ring ] | deriv ].
