(* C03 - tactics of the generated obligations about spatial derivatives (coq/Gen/C03*_t2_*.v).

   An obligation is [den out c = den in c]; after evaluation it is an identity between expressions over the
   operations of an arbitrary algebra (Section variables of the generated file) in which the input side
   still applies derivations [D] ([Dx j], in the reference family also [DX k]) to compound terms.  The
   derivations are pushed to the terminals with the derivation laws, and ring / field closes the goal once
   equal applications of the uninterpreted operations have syntactically equal arguments.

   Nothing here mentions a Section variable of the generated files: a tactic takes the symbols and laws it
   needs as arguments.  Those that go together come as one argument, a function that hands them to its
   continuation (the generated file prints e.g. [Ltac c03_K k := k z0 z1 add mul sub opp div inv.]):
     K : z0 z1 add mul sub opp div inv                   V : env Dx DX
     U : conj re im abs fn pow atan2 cmp cond_ min_ max_
   A proof uses a law only where the term has the matching node, so an obligation rests on the hypotheses
   that rewriting with the laws would use. *)
Require Import UFLV.Core.Tac.
Require Import List.
Import ListNotations.

(* The derivative of a compound term from the derivatives of its parts; L is the law of the operation for
   the derivation D. *)
Lemma d_lin1 {KT} (D g : KT -> KT) (L : forall x, D (g x) = g (D x)) [a a'] : D a = a' -> D (g a) = g a'.
Proof. intros <-. apply L. Qed.
Lemma d_lin2 {KT} (D : KT -> KT) (g : KT -> KT -> KT) (L : forall x y, D (g x y) = g (D x) (D y)) [a b a' b'] :
  D a = a' -> D b = b' -> D (g a b) = g a' b'.
Proof. intros <- <-. apply L. Qed.
Lemma d_mulc {KT} (D : KT -> KT) (add mul : KT -> KT -> KT)
  (L : forall x y, D (mul x y) = add (mul (D x) y) (mul x (D y))) [a b a' b'] :
  D a = a' -> D b = b' -> D (mul a b) = add (mul a' b) (mul a b').
Proof. intros <- <-. apply L. Qed.
Lemma d_divc {KT} (D : KT -> KT) (mul sub div : KT -> KT -> KT)
  (L : forall x y, D (div x y) = div (sub (D x) (mul (div x y) (D y))) y) [a b a' b'] :
  D a = a' -> D b = b' -> D (div a b) = div (sub a' (mul (div a b) b')) b.
Proof. intros <- <-. apply L. Qed.
(* chain rule of a function symbol g with derivative h; abs with its sign s *)
Lemma d_fn {KT} (D : KT -> KT) (mul : KT -> KT -> KT) (g h : KT -> KT)
  (L : forall x, D (g x) = mul (D x) (h x)) [a a'] : D a = a' -> D (g a) = mul a' (h a).
Proof. intros <-. apply L. Qed.
Lemma d_abs {KT} (D : KT -> KT) (mul : KT -> KT -> KT) (g s : KT -> KT)
  (L : forall x, D (g x) = mul (s x) (D x)) [a a'] : D a = a' -> D (g a) = mul (s a) a'.
Proof. intros <-. apply L. Qed.
Lemma d_pow {KT} (D : KT -> KT) (z1 : KT) (add mul sub pow : KT -> KT -> KT) (ln : KT -> KT)
  (L : forall x y, D (pow x y) = mul (pow x (sub y z1)) (add (mul y (D x)) (mul (mul x (ln x)) (D y))))
  [a b a' b'] :
  D a = a' -> D b = b' -> D (pow a b) = mul (pow a (sub b z1)) (add (mul b a') (mul (mul a (ln a)) b')).
Proof. intros <- <-. apply L. Qed.
(* max / min: the derivative of the argument selected by the comparison o *)
Lemma d_sel {KT BT} (D : KT -> KT) (z0 z1 : KT) (add mul sub : KT -> KT -> KT) (cmp : cmpop -> KT -> KT -> BT)
  (cond_ : BT -> KT -> KT -> KT) (o : cmpop) (g : KT -> KT -> KT)
  (L : forall x y, D (g x y) = add (mul (cond_ (cmp o x y) z1 z0) (D x))
                                   (mul (sub z1 (cond_ (cmp o x y) z1 z0)) (D y))) [a b a' b'] :
  D a = a' -> D b = b' ->
  D (g a b) = add (mul (cond_ (cmp o a b) z1 z0) a') (mul (sub z1 (cond_ (cmp o a b) z1 z0)) b').
Proof. intros <- <-. apply L. Qed.
Lemma d_atan2 {KT} (D : KT -> KT) (add mul sub div g : KT -> KT -> KT)
  (L : forall x y, D (g x y) = div (sub (mul y (D x)) (mul x (D y))) (add (mul x x) (mul y y))) [a b a' b'] :
  D a = a' -> D b = b' -> D (g a b) = div (sub (mul b a') (mul a b')) (add (mul a a) (mul b b)).
Proof. intros <- <-. apply L. Qed.

(* The terminals [env s k id c] are named first, so that the terms to push and to rewrite stay small; a
   terminal that turns up later (from a hypothesis) takes the name it has. *)
Ltac name_env env :=
  repeat match goal with
         | |- context [env ?s ?k ?n ?c] =>
             match goal with
             | a := env s k n c |- _ => change (env s k n c) with a
             | _ => let a := fresh "a" in set (a := env s k n c)
             end
         end.
(* [named env t]: the value of t if t is a terminal or a name (of a terminal, of a derivative of one), else false *)
Ltac named env t :=
  match t with
  | env _ _ _ _ => t
  | _ => let _ := match goal with _ => is_var t end in eval unfold t in t
  | _ => constr:(false)
  end.
(* a terminal under derivations: nothing to push *)
Ltac chain V t :=
  V ltac:(fun env Dx DX =>
      lazymatch t with
      | Dx _ ?u => chain V u | DX _ ?u => chain V u
      | _ => lazymatch named env t with false => constr:(false) | _ => constr:(true) end
      end
  ).

(* the proof for a node with one or two arguments: [d] on the arguments, then the lemma L of the node *)
Ltac d1 d a L := let p := d a in constr:(L _ _ p).
Ltac d2 d a b L := let p := d a in let q := d b in constr:(L _ _ _ _ p q).
(* [d_ring K D laws j self other t]: a proof of [D t = t'] for a ring operation at the head of t, from
   [self] on its arguments; laws : Ladd Lsub Lmul Ldiv Lopp L0 L1, each applied to j, are the laws of
   D; [other t] for any other head. *)
Ltac d_ring K D laws j self other t :=
  K ltac:(fun z0 z1 add mul sub opp div _ =>
      laws ltac:(fun La Ls Lm Ld Lo L0 L1 =>
          lazymatch t with
          | add ?a ?b => d2 self a b (d_lin2 D add (La j))
          | sub ?a ?b => d2 self a b (d_lin2 D sub (Ls j))
          | mul ?a ?b => d2 self a b (d_mulc D add mul (Lm j))
          | div ?a ?b => d2 self a b (d_divc D mul sub div (Ld j))
          | opp ?a => d1 self a (d_lin1 D opp (Lo j))
          | z0 => constr:(L0 j)
          | z1 => constr:(L1 j)
          | _ => other t
          end
      )
  ).
(* [d_nested V D di dj i u t]: t = [D' i u] for a member [D' i] of a family D', to be put under D; [di i u]
   is the pass for [D' i] on u, [dj] the pass for D: the inner derivative first, then D through what it gives;
   nothing to do over a terminal *)
Ltac d_nested V D di dj i u t :=
  lazymatch chain V u with
  | true => constr:(eq_refl (D t))
  | false => let p := di i u in
             lazymatch type of p with _ = ?u' => let q := dj u' in constr:(eq_trans (f_equal D p) q) end
  end.
(* [env_law K env D tab j t], t a terminal or its name: a proof of [D j t = r] by the law of the kind of the
   terminal, looked up in [tab kind zero delta] (printed with the generated file from the generator's table:
   [zero L] for a law [L s id c j : D j (env s kind id c) = z0], [delta L] for the coordinate law, false where
   there is none), else by a hypothesis of the case "constant on each cell"; eq_refl where there is neither *)
Ltac env_law K env D tab j t :=
  K ltac:(fun z0 z1 _ _ _ _ _ _ =>
      lazymatch named env t with
      | env ?s ?kd ?n ?c =>
          let zero L := constr:(@id (D j t = z0) (L s n c j)) in
          let delta L :=
            lazymatch c with
            | [?i] => let r := eval cbv in (if Nat.eqb i j then z1 else z0) in
                      constr:(@id (D j t = r) (L s n i j))
            | _ => constr:(false)
            end in
          lazymatch tab kd zero delta with
          | false =>
              match goal with
              | H : (forall s c j, D j (env s kd n c) = z0) |- _ => constr:(@id (D j t = z0) (H s c j))
              | _ => constr:(eq_refl (D j t))
              end
          | ?p => p
          end
      | _ => constr:(eq_refl (D j t))
      end
  ).
(* the goal is rewritten once per derivative of a compound term, [d j t] the proof *)
Ltac d_push V D d :=
  repeat match goal with
         | |- context [D ?j ?t] =>
             lazymatch chain V t with false => idtac end; let p := d j t in progress rewrite p
         end.
(* every derivative of a name that is left in the goal: rewritten by its law (then [zs], for a derivative of
   the z0 or z1 this leaves), or named in turn (one atom for ring); then what is left under D *)
Ltac d_name env D law zs :=
  repeat match goal with
         | |- context [D ?j ?t] =>
             lazymatch named env t with false => fail | _ => idtac end;
             let p := law j t in
             lazymatch p with
             | eq_refl => let a := fresh "a" in set (a := D j t)
             | _ => rewrite p; zs
             end
         end.
Ltac d_name_rest D := repeat match goal with |- context [D ?j ?t] => let a := fresh "a" in set (a := D j t) end.

Ltac is_num K X :=
  K ltac:(fun z0 z1 add mul sub opp _ _ =>
      lazymatch X with
      | z0 => idtac | z1 => idtac
      | add ?a ?b => is_num K a; is_num K b
      | mul ?a ?b => is_num K a; is_num K b
      | sub ?a ?b => is_num K a; is_num K b
      | opp ?a => is_num K a
      | _ => fail
      end
  ).
Ltac not_num K X := tryif is_num K X then fail else idtac.
(* inverses of non-numerals become opaque atoms, so that [field] only has to invert numerals *)
Ltac hide_inv K :=
  K ltac:(fun _ _ _ _ _ _ _ inv =>
      repeat match goal with
             | |- context [inv ?X] =>
                 not_num K X; let v := fresh "iv" in set (v := inv X) in *; clearbody v
             end
  ).
(* equality of arguments: E : div_def inv_one char0.  [eq1] is what the shared preamble uses for
   fn/abs/conj/Dx/DX, also tried after [div_def]; [eq2] the stronger one used for the other symbols *)
Ltac eq1 E :=
  E ltac:(fun div_def _ char0 =>
      first [ ring | field; nz_solve char0 | rewrite ?div_def; first [ ring | field; nz_solve char0 ] ]
  ).
Ltac eq2 K E :=
  E ltac:(fun div_def inv_one char0 =>
      first [ reflexivity | ring | rewrite ?div_def, ?inv_one; ring
            | rewrite ?div_def; hide_inv K; field; nz_solve char0 | field; nz_solve char0 ]
  ).
(* Applications of the operations that ring does not know are named, innermost first (the arguments of the
   one that is named contain none: [flat]); one whose arguments are provably equal to those of an application
   named before takes that name, so that ring sees the same atom.  Each pair is compared once, and pairs
   with atomic arguments not at all.  [e1] proves the equality of arguments of fn/abs/conj/Dx/DX, [e2] of the
   others; other families of generated files call [name_atoms_by] with their own. *)
Ltac flat U V t :=
  U ltac:(fun conj re im abs fn pow atan2 cmp cond_ min_ max_ =>
      V ltac:(fun _ Dx DX =>
          lazymatch t with
          | context [fn _ _] => fail | context [abs _] => fail | context [conj _] => fail
          | context [re _] => fail | context [im _] => fail | context [pow _ _] => fail
          | context [atan2 _ _] => fail | context [cmp _ _ _] => fail | context [cond_ _ _ _] => fail
          | context [min_ _ _] => fail | context [max_ _ _] => fail
          | context [Dx _ _] => fail | context [DX _ _] => fail
          | _ => idtac
          end
      )
  ).
Ltac atomic t := lazymatch t with _ _ => fail | _ => idtac end.
Ltac name1 U V h X eqt :=
  flat U V X;
  match goal with
  | _ => atomic X; let a := fresh "a" in set (a := h X)
  | b := h ?Y |- _ => replace (h X) with b by (unfold b; f_equal; eqt)
  | _ => let a := fresh "a" in set (a := h X)
  end.
Ltac name2 U V h X P eqt :=
  flat U V X; flat U V P;
  match goal with
  | _ => atomic X; atomic P; let a := fresh "a" in set (a := h X P)
  | b := h ?Y ?Q |- _ => replace (h X P) with b by (unfold b; f_equal; eqt)
  | _ => let a := fresh "a" in set (a := h X P)
  end.
Ltac name_atoms_by U V e1 e2 :=
  U ltac:(fun conj re im abs fn pow atan2 cmp cond_ min_ max_ =>
      V ltac:(fun _ Dx DX =>
          repeat match goal with
                 | |- context [fn ?f ?X] => name1 U V (fn f) X e1
                 | |- context [abs ?X] => name1 U V abs X e1
                 | |- context [conj ?X] => name1 U V conj X e1
                 | |- context [Dx ?j ?X] => name1 U V (Dx j) X e1
                 | |- context [DX ?j ?X] => name1 U V (DX j) X e1
                 | |- context [re ?X] => name1 U V re X e2
                 | |- context [im ?X] => name1 U V im X e2
                 | |- context [pow ?X ?P] => name2 U V pow X P e2
                 | |- context [atan2 ?X ?P] => name2 U V atan2 X P e2
                 | |- context [min_ ?X ?P] => name2 U V min_ X P e2
                 | |- context [max_ ?X ?P] => name2 U V max_ X P e2
                 | |- context [cmp ?o ?X ?P] => name2 U V (cmp o) X P e2
                 | |- context [cond_ ?b ?X ?P] => flat U V b; name2 U V (cond_ b) X P e2
                 end
      )
  ).
Ltac name_atoms K U V E := name_atoms_by U V ltac:(idtac; eq1 E) ltac:(idtac; eq2 K E).
(* after [div_def]: the inverses of non-numerals, innermost first, so that [field] only has to invert numerals *)
Ltac name_inv K U V E :=
  K ltac:(fun _ _ _ _ _ _ _ inv =>
      repeat match goal with
             | |- context [inv ?X] =>
                 not_num K X;
                 match X with context [inv ?Y] => not_num K Y; fail 1 | _ => idtac end;
                 name1 U V inv X ltac:(idtac; eq2 K E)
             end
  ).
Ltac unname := repeat match goal with a := _ |- _ => subst a end.
(* reflexivity, ring, or after [div_def] ring / field with the numerals inverted by characteristic zero *)
Ltac fin K U V E :=
  E ltac:(fun div_def _ char0 =>
      first [ reflexivity | ring
            | rewrite ?div_def; name_inv K U V E; first [ ring | field; nz_solve char0 ]
            | field; nz_solve char0 ]
  ).

(* t is zero by the laws of z0 alone: what the derivative of a literal looks like *)
Ltac zeroish K t :=
  K ltac:(fun z0 _ add mul sub opp div _ =>
      lazymatch t with
      | z0 => idtac
      | add ?a ?b => zeroish K a; zeroish K b
      | sub ?a ?b => zeroish K a; zeroish K b
      | mul ?a ?b => first [ zeroish K a | zeroish K b ]
      | div ?a _ => zeroish K a
      | opp ?a => zeroish K a
      end
  ).
(* conj / re / im of something equal to zero and conditionals both of whose branches are equal to zero become
   z0, by Z : conj_z0 re_z0 im_z0 cond_same; [may X] says whether X is worth trying *)
Ltac zeros K U E Z may :=
  K ltac:(fun z0 _ _ _ _ _ _ _ =>
      U ltac:(fun conj re im _ _ _ _ _ cond_ _ _ =>
          Z ltac:(fun conj_z0 re_z0 im_z0 cond_same =>
              let to_zero t t0 L :=
                replace t with z0 by (transitivity t0; [ symmetry; apply L | f_equal; symmetry; eq2 K E ]) in
              repeat match goal with
                     | |- context [conj ?X] => may X; to_zero (conj X) (conj z0) conj_z0
                     | |- context [re ?X] => may X; to_zero (re X) (re z0) re_z0
                     | |- context [im ?X] => may X; to_zero (im X) (im z0) im_z0
                     | |- context [cond_ ?b ?X ?Y] => may X; may Y; to_zero (cond_ b X Y) (cond_ b z0 z0) cond_same
                     end;
              rewrite ?cond_same
          )
      )
  ).

(* [dx_main ...  j t]: a proof of [Dx j t = t'] with the derivations of t' on terminals, for the operations of
   the main family: X : dfn sign_ ki erf_c, laws as in [d_ring], laws2 : Dx_conj Dx_re Dx_im Dx_cond Dx_fn
   Dx_pow Dx_abs Dx_max Dx_min Dx_atan2 Dx_ki Dx_erf_c, [tl j t] the law of a terminal *)
Ltac dx_main K U V X laws laws2 tl j t :=
  let self u := dx_main K U V X laws laws2 tl j u in
  V ltac:(fun _ Dx _ =>
  let D := constr:(Dx j) in
  d_ring K D laws j self ltac:(fun t =>
    K ltac:(fun z0 z1 add mul sub _ div _ =>
    U ltac:(fun conj re im abs fn pow atan2 cmp cond_ min_ max_ =>
    X ltac:(fun dfn sign_ ki erf_c =>
    laws2 ltac:(fun Lconj Lre Lim Lcond Lfn Lpow Labs Lmax Lmin Latan2 Lki Lerf =>
      lazymatch t with
      | conj ?a => d1 self a (d_lin1 D conj (Lconj j))
      | re ?a => d1 self a (d_lin1 D re (Lre j))
      | im ?a => d1 self a (d_lin1 D im (Lim j))
      | cond_ ?c ?a ?b => d2 self a b (d_lin2 D (cond_ c) (Lcond j c))
      | fn ?f ?a => d1 self a (d_fn D mul (fn f) (dfn f) (Lfn j f))
      | pow ?a ?b => d2 self a b (d_pow D z1 add mul sub pow (fn FLn) (Lpow j))
      | abs ?a => d1 self a (d_abs D mul abs sign_ (Labs j))
      | max_ ?a ?b => d2 self a b (d_sel D z0 z1 add mul sub cmp cond_ CGT max_ (Lmax j))
      | min_ ?a ?b => d2 self a b (d_sel D z0 z1 add mul sub cmp cond_ CLT min_ (Lmin j))
      | atan2 ?a ?b => d2 self a b (d_atan2 D add mul sub div atan2 (Latan2 j))
      | dfn _ _ => let d := eval cbv beta iota delta [dfn] in t in self d
      | sign_ _ => let d := eval cbv beta delta [sign_] in t in self d
      | ki => constr:(Lki j)
      | erf_c => constr:(Lerf j)
      | Dx ?i ?u => d_nested V D ltac:(fun i u => dx_main K U V X laws laws2 tl i u) self i u t
      | _ => tl j t
      end)))))
    t).

(* The obligations of the main family.  Evaluate; name the terminals; push the derivatives of compound terms;
   unfold what the chain rules brought (dfn, sign_, the literal erf_c); laws of the terminals and names for
   the derivatives that stay; zeros under conj/re/im/conditionals; names for the other applications; close.
   Z as in [zeros], E as in [eq2], C : Dx_comm_10 Dx_comm_20 Dx_comm_21.  The last alternative looks for
   zeros that are not plain and reorders nested derivatives: what the direct way does not find. *)
Ltac close_main K U V X laws laws2 Z E C tl :=
  V ltac:(fun env Dx _ =>
  X ltac:(fun dfn sign_ _ erf_c =>
  laws ltac:(fun _ _ _ _ _ L0 L1 =>
  C ltac:(fun c10 c20 c21 =>
      norm_goal; name_env env;
      d_push V Dx ltac:(fun j t => dx_main K U V X laws laws2 tl j t);
      cbv beta iota delta [dfn sign_];
      lazymatch goal with
      | |- context [erf_c] => let e := eval vm_compute in erf_c in change erf_c with e
      | _ => idtac
      end;
      d_name env Dx tl ltac:(rewrite ?L1, ?L0); d_name_rest Dx;
      zeros K U E Z ltac:(fun X => zeroish K X); name_atoms K U V E;
      first [ fin K U V E
            | unname; zeros K U E Z ltac:(fun _ => idtac);
              repeat (progress rewrite ?c10, ?c20, ?c21); name_env env; d_name_rest Dx; name_atoms K U V E;
              fin K U V E ]
  ) ) ) ).

(* Reference family: [dxr] pushes Dx with the ring laws only; [dX] the reference derivations DX (lawsX their
   laws, [tlX] the law of a terminal). *)
Ltac dxr K V laws tl j t :=
  V ltac:(fun _ Dx _ =>
      let self u := dxr K V laws tl j u in
      let D := constr:(Dx j) in
      d_ring K D laws j self ltac:(fun t =>
        lazymatch t with
        | Dx ?i ?u => d_nested V D ltac:(fun i u => dxr K V laws tl i u) self i u t
        | _ => tl j t
        end) t
  ).
Ltac dX K V lawsX tlX k t :=
  V ltac:(fun _ _ DX =>
      let self u := dX K V lawsX tlX k u in
      let D := constr:(DX k) in
      d_ring K D lawsX k self ltac:(fun t =>
        lazymatch t with
        | DX ?i ?u => d_nested V D ltac:(fun i u => dX K V lawsX tlX i u) self i u t
        | _ => tlX k t
        end) t
  ).
(* the reference derivatives in t (a sum of products, the right-hand side of the chain rule) pushed to terminals *)
Ltac dX_in K V lawsX tlX t :=
  K ltac:(fun _ _ add mul _ _ _ _ =>
      V ltac:(fun _ _ DX =>
          lazymatch t with
          | add ?a ?b => let p := dX_in K V lawsX tlX a in let q := dX_in K V lawsX tlX b in constr:(f_equal2 add p q)
          | mul ?a ?b => let p := dX_in K V lawsX tlX a in let q := dX_in K V lawsX tlX b in constr:(f_equal2 mul p q)
          | DX ?k ?a => dX K V lawsX tlX k a
          | _ => constr:(eq_refl t)
          end
      )
  ).
(* [chain_rule ... H j a]: [Dx j a] by reference derivatives on terminals, H : forall j a, Dx j a = ... the chain
   rule through the cell map (a hypothesis of the case); a derivative inside a first *)
Ltac chain_rule K V lawsX tlX H j a :=
  V ltac:(fun _ Dx _ =>
      lazymatch a with
      | Dx ?i ?b =>
          let p := chain_rule K V lawsX tlX H i b in
          lazymatch type of p with
          | _ = ?b' => let q := chain_rule K V lawsX tlX H j b' in constr:(eq_trans (f_equal (Dx j) p) q)
          end
      | _ => let c := constr:(H j a) in
             lazymatch type of c with _ = ?r => let q := dX_in K V lawsX tlX r in constr:(eq_trans c q) end
      end
  ).
(* The obligations of the reference family: Dx to the terminals, the chain rule for what is left under Dx,
   DX to the terminals, then as in the main family. *)
Ltac close_ref K U V laws lawsX E tl tlX :=
  V ltac:(fun env Dx DX =>
  laws ltac:(fun _ _ _ _ _ L0 L1 =>
  lawsX ltac:(fun _ _ _ _ _ LX0 LX1 =>
      norm_goal; name_env env;
      d_push V Dx ltac:(fun j t => dxr K V laws tl j t);
      try match goal with
          | H : (forall j a, Dx j a = _) |- _ =>
              repeat match goal with
                     | |- context [Dx ?j ?a] => let p := chain_rule K V lawsX tlX H j a in rewrite p
                     end
          end;
      name_env env;
      d_push V DX ltac:(fun k t => dX K V lawsX tlX k t);
      d_name env Dx tl ltac:(rewrite ?L1, ?L0); d_name env DX tlX ltac:(rewrite ?LX1, ?LX0);
      d_name_rest Dx; d_name_rest DX; name_atoms K U V E; fin K U V E
  ) ) ).
