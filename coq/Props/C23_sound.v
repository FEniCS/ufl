(* C23: semantic theorems about the model of C23_model.v, in every UFL algebra that satisfies the
   laws stated as Section hypotheses below (all of them hold in the complex numbers, with
   kim = imaginary part, when [okfn] selects the math functions that map R into R).

     check e = Some (e', t)  ->
                     (a) den e' c = den e c   for all components, index valuations, restrictions
                     (b) t <> complex -> kim (den e c) = 0
   on the fragment [inF] (everything except the compound tensor-algebra nodes Outer/Inner/Dot/Cross/
   Perp/Trace/Determinant/Inverse/Cofactor/Deviatoric/Skew/Sym/Curl, which [check] also handles by
   the default rule but whose denotation would need closure lemmas for determinants etc.).
   [inF] also demands [okfn f] of every Math node and [okb] of every Bessel node that the variant does
   not type complex ([cfn f] = false, [cbs k] = false): this is where "math functions map reals to
   reals" enters. *)
Require Import UFLV.Core.Facts.
Require Import UFLV.Props.C21_ind.
Require Import UFLV.Props.C23_model.
Require Import UFLV.Props.C23_syn.
Require Import UFLV.Props.C23_syn2.

Local Arguments join : simpl never.

Section Frag.
Variable cfn : mathfn -> bool.     (* math functions the analysis types complex (C23_model.cfn_of) *)
Variable cbs : bkind -> bool.      (* Bessel kinds the analysis types complex *)
Variable okfn : mathfn -> bool.
Variable okb : bool.
Fixpoint inF (e : expr) : bool :=
  match e with
  | Zero _ _ | IntV _ | RealV _ _ | CplxV _ _ _ _ | RatV _ _ | Identity _ | PermSym _ | Term _ _ _ => true
  | Sum a b | Product a b | Division a b | Power a b | MinV a b | MaxV a b | Atan2 a b => inF a && inF b
  | Bessel k a b => (cbs k || okb) && (inF a && inF b)
  | Abs a | Conj a | Real a | Imag a | Indexed a _ | IndexSum a _ _ | ComponentTensor a _
  | Vari a _ | Restricted _ a | Grad a _ | RefGrad a _ | Div a _ | NablaGrad a _
  | NablaDiv a _ | RefValue a _ | Transposed a => inF a
  | Math f a => (cfn f || okfn f) && inF a
  | ListTensor es => (fix go (l : list expr) := match l with [] => true | x :: t => inF x && go t end) es
  | Conditional c t f => inFc c && (inF t && inF f)
  | Curl _ | Outer _ _ | Inner _ _ | Dot _ _ | Cross _ _ | Perp _ | Trace _ | Determinant _
  | Inverse _ | Cofactor _ | Deviatoric _ | Skew _ | Sym _ => false
  end
with inFc (c : cond) : bool :=
  match c with
  | Cmp _ a b => inF a && inF b
  | AndC a b | OrC a b => inFc a && inFc b
  | NotC a => inFc a
  end.
End Frag.

(* functions that map the real line into itself (in C, principal branches) *)
Definition total_real (f : mathfn) : bool :=
  match f with
  | FExp | FCos | FSin | FTan | FCosh | FSinh | FTanh | FAtan | FErf => true
  | FSqrt | FLn | FAcos | FAsin => false
  end.
Definition not_sqrt (f : mathfn) : bool := match f with FSqrt => false | _ => true end.


(* the type of a node typed by the default rule is complex as soon as an operand's is *)
Lemma join1 t : is_complex (join [t]) = is_complex t.
Proof. destruct t; reflexivity. Qed.
Lemma join2 t u : is_complex (join [t; u]) = is_complex t || is_complex u.
Proof. destruct t, u; reflexivity. Qed.
Lemma join3 t u v : is_complex (join [t; u; v]) = is_complex t || is_complex u || is_complex v.
Proof. destruct t, u, v; reflexivity. Qed.
Lemma join_nc ts : is_complex (join ts) = false -> existsb is_complex ts = false.
Proof.
  destruct ts as [|t ts]; [discriminate|]. unfold join.
  destruct (existsb is_complex (t :: ts)); [discriminate|reflexivity].
Qed.

(* The value of a node depends on the operands through their values only: [den] of the node in
   terms of [den] of the operands; under a sum, summand by summand.  For goals [cong1 f],
   [cong2 f] (below and in C23_real.v). *)
Ltac cong1_tac := intros x y Exy s rho cc; cbn [den split_last]; try (apply ksum_ext; intros ? _);
  rewrite ?(Exy _ _ _); reflexivity.
Ltac cong2_tac := intros x x' y y' Ex Ey s rho cc; cbn [den]; rewrite ?(Ex _ _ _), ?(Ey _ _ _); reflexivity.

(* each induction hypothesis [guard = true -> _] at its guard, found among the hypotheses *)
Ltac feed_guards := repeat match goal with IH : _ = true -> _ |- _ => specialize (IH ltac:(assumption)) end.

Section Sound.
Variable A : ualg.
Add Field Af23 : (kfield A).
Variable env : side -> nat -> nat -> list nat -> A.
Variables D DX : nat -> A -> A.
Variable ki : A.
Variable cfn : mathfn -> bool.
Variable cbs : bkind -> bool.
Variable okfn : mathfn -> bool.
Variable okb : bool.
Local Notation check := (C23_model.check cfn cbs).
Local Notation checkc := (C23_model.checkc cfn cbs).
Local Notation check_list := (C23_model.check_list cfn cbs).
Open Scope K_scope.
Notation DEN := (@den A env D DX ki).
Notation DENC := (@denc A env D DX ki).
Definition isreal (x : A) : Prop := kim x = k0.

(* laws of the algebra: the reals {x | kim x = 0} are a subfield closed under the operations *)
Hypothesis R0 : isreal k0.
Hypothesis R1 : isreal k1.
Hypothesis Radd : forall x y, isreal x -> isreal y -> isreal (x + y).
Hypothesis Rmul : forall x y, isreal x -> isreal y -> isreal (x * y).
Hypothesis Ropp : forall x, isreal x -> isreal (- x).
Hypothesis Rdiv : forall x y, isreal x -> isreal y -> isreal (x / y).
Hypothesis Rre : forall x, isreal (kre x).
Hypothesis Rim : forall x, isreal (kim x).
Hypothesis Rabs : forall x, isreal (kabs x).
Hypothesis re_id : forall x, isreal x -> kre x = x.
Hypothesis Rconj : forall x, isreal x -> isreal (kconj x).
Hypothesis Rcond : forall b x y, isreal x -> isreal y -> isreal (kcond b x y).
Hypothesis Rmin : forall x y, isreal x -> isreal y -> isreal (kmin x y).
Hypothesis Rmax : forall x y, isreal x -> isreal y -> isreal (kmax x y).
Hypothesis Ratan2 : forall x y, isreal x -> isreal y -> isreal (katan2 x y).
Hypothesis Rpow_int : forall x z, isreal x -> isreal (kpow x (of_Z z)).
Hypothesis RD : forall j x, isreal x -> isreal (D j x).
Hypothesis RDX : forall j x, isreal x -> isreal (DX j x).
(* the math functions selected by okfn / the Bessel functions map reals to reals *)
Hypothesis Rfn : forall f x, okfn f = true -> isreal x -> isreal (kfn f x).
Hypothesis Rbessel : okb = true -> forall k x y, isreal x -> isreal y -> isreal (kbessel k x y).
(* the environment: terminals that CheckComparisons.terminal classifies real are real-valued *)
Hypothesis Renv : forall s k id c, term_ty k = TReal -> isreal (env s k id c).

Lemma isreal_subfield : subfield isreal.
Proof. split; auto. Qed.
Lemma R_ksum n f : (forall k, isreal (f k)) -> isreal (ksum n f : A).
Proof. intros H. apply (sf_ksum _ _ isreal_subfield). auto. Qed.
Lemma div1 (x : A) : x / k1 = x.
Proof. field. exact (F_1_neq_0 (kfield A)). Qed.

Local Hint Resolve R0 R1 Radd Rmul Ropp Rdiv Rre Rim Rabs Rconj Rcond Rmin Rmax Ratan2 RD RDX : rl.

(* equal values / real values in every context *)
Definition deq (x y : expr) : Prop := forall s rho c, DEN s rho x c = DEN s rho y c.
Definition realv (x : expr) : Prop := forall s rho c, isreal (DEN s rho x c).
Definition site_real (p : expr * expr) : Prop := realv (fst p) /\ realv (snd p).
Definition cong1 (f : expr -> expr) : Prop := forall x y, deq x y -> deq (f x) (f y).
Definition cong2 (f : expr -> expr -> expr) : Prop :=
  forall x x' y y', deq x x' -> deq y y' -> deq (f x y) (f x' y').

Lemma deq_mk_real a' a : deq a' a -> realv a -> deq (mk_real a') a.
Proof.
  intros V Ra s rho c. unfold mk_real. destruct (lit_real a'); [apply V|].
  cbn [den]. rewrite (V _ _ _). apply re_id, Ra.
Qed.

Lemma deq_ListTensor es' es : Forall2 deq es' es -> deq (ListTensor es') (ListTensor es).
Proof.
  intros H s rho c. rewrite !den_ListTensor. destruct c as [|k c']; [reflexivity|].
  revert k. induction H as [|x' x es' es Hx _ IH]; intros [|k]; cbn [nth_error]; auto.
Qed.
Lemma realv_ListTensor es : Forall realv es -> realv (ListTensor es).
Proof.
  intros H s rho c. rewrite den_ListTensor. destruct c as [|k c']; [exact R0|].
  revert k. induction H as [|x es Hx _ IH]; intros [|k]; cbn [nth_error]; auto.
Qed.

(* What [check] establishes at an accepted expression of the fragment: the output has the value of
   the input, an input not typed complex is real-valued, and so are the operands of every ordering
   site of the input. *)
Definition sound (r : R) (e : expr) : Prop :=
  match r with
  | Some (e', t) => deq e' e /\ (is_complex t = false -> realv e) /\ Forall site_real (sites e)
  | None => True
  end.
Definition soundc (r : option (cond * ty)) (cn : cond) : Prop :=
  match r with
  | Some (c', _) => (forall s rho, DENC s rho c' = DENC s rho cn) /\ Forall site_real (csites cn)
  | None => True
  end.

(* The rules of [check]: what each needs to know of the node constructor [f] it is used with. *)
Lemma sound_leaf e t : (is_complex t = false -> realv e) -> sites e = [] -> sound (Some (e, t)) e.
Proof. intros Re Se. cbn. rewrite Se. repeat split; auto. Qed.
Lemma sound_kc t f ra a :
  cong1 f -> (is_complex t = false -> realv (f a)) -> sites (f a) = sites a ->
  sound ra a -> sound (kc t f ra) (f a).
Proof.
  intros Cf Rf Sf. destruct ra as [[a' ta]|]; [|trivial]. cbn. intros (Va & _ & Sa).
  rewrite Sf. auto.
Qed.
Lemma sound_d1 f ra a :
  cong1 f -> (realv a -> realv (f a)) -> sites (f a) = sites a ->
  sound ra a -> sound (d1 f ra) (f a).
Proof.
  intros Cf Rf Sf. destruct ra as [[a' ta]|]; [|trivial]. cbn. intros (Va & Ra & Sa).
  rewrite join1, Sf. auto.
Qed.
Lemma sound_x2 f ra rb a b :
  cong2 f -> sites (f a b) = sites a ++ sites b ->
  sound ra a -> sound rb b -> sound (x2 f ra rb) (f a b).
Proof.
  intros Cf Sf. destruct ra as [[a' ta]|]; [|trivial]. destruct rb as [[b' tb]|]; [|trivial].
  cbn. intros (Va & _ & Sa) (Vb & _ & Sb). rewrite Sf. repeat split; auto; [discriminate|].
  apply Forall_app. auto.
Qed.
Lemma sound_d2 f ra rb a b :
  cong2 f -> (realv a -> realv b -> realv (f a b)) -> sites (f a b) = sites a ++ sites b ->
  sound ra a -> sound rb b -> sound (d2 f ra rb) (f a b).
Proof.
  intros Cf Rf Sf. destruct ra as [[a' ta]|]; [|trivial]. destruct rb as [[b' tb]|]; [|trivial].
  cbn. intros (Va & Ra & Sa) (Vb & Rb & Sb). rewrite join2, Sf. repeat split; auto.
  - intros H. apply orb_false_elim in H. destruct H. auto.
  - apply Forall_app. auto.
Qed.
(* min_value / max_value: the operands are real, so wrapping them in Real(.) changes nothing *)
Lemma sound_c2 f ra rb a b :
  cong2 f -> (realv a -> realv b -> realv (f a b)) -> sites (f a b) = (a, b) :: sites a ++ sites b ->
  sound ra a -> sound rb b -> sound (c2 f ra rb) (f a b).
Proof.
  intros Cf Rf Sf. destruct ra as [[a' ta]|]; [|trivial]. destruct rb as [[b' tb]|]; [|trivial].
  cbn. intros (Va & Ra & Sa) (Vb & Rb & Sb).
  destruct (is_complex ta || is_complex tb) eqn:E; [exact I|]. apply orb_false_elim in E. destruct E as [Ea Eb].
  cbn. rewrite Sf. repeat split; auto using deq_mk_real.
  constructor; [split; auto|]. apply Forall_app. auto.
Qed.

(* every clause of [check] rebuilds the node it is given, so an exponent is an integer literal after
   the check iff it was one before *)
Lemma check_head b b' t :
  check b = Some (b', t) -> lit_int b' = lit_int b /\ int_valued b' = int_valued b.
Proof.
  destruct b; try rewrite check_ListTensor; cbn [C23_model.check]; unfold d1, d2, dx, x2, kc, c2; intros H;
    repeat match type of H with context [match ?r with _ => _ end] => destruct r; try discriminate H end;
    injection H as <- _; split; reflexivity.
Qed.

Definition Sx (e : expr) : Prop := inF cfn cbs okfn okb e = true -> sound (check e) e.
Definition Sc (cn : cond) : Prop := inFc cfn cbs okfn okb cn = true -> soundc (checkc cn) cn.

Lemma sound_Power a b : Sx a -> Sx b -> Sx (Power a b).
Proof.
  unfold Sx. cbn [inF C23_model.check sites]. intros IHa IHb G. bsplit.
  specialize (IHa ltac:(assumption)). specialize (IHb ltac:(assumption)).
  destruct (check a) as [[a' ta]|]; [|trivial]. destruct (check b) as [[b' tb]|] eqn:Eb; [|trivial].
  destruct IHa as (Va & Ra & Sa), IHb as (Vb & _ & Sb). destruct (check_head _ _ _ Eb) as [L I].
  repeat split; [| |apply Forall_app; auto].
  - intros s rho c. rewrite !den_Power, L, (Va _ _ _), (Vb _ _ _). reflexivity.
  - intros Hn s rho c. destruct (is_real ta && int_valued b') eqn:E; [|discriminate Hn].
    apply andb_prop in E. destruct E as [Et Ei]. rewrite I in Ei.
    assert (Rx : isreal (DEN s rho a [])) by (apply Ra; destruct ta; try discriminate Et; reflexivity).
    rewrite den_Power. destruct b; try discriminate Ei; cbn [lit_int pow_z den].
    + exact (Rpow_int _ 0%Z Rx).
    + destruct z; [exact R1 | apply (sf_kpown _ _ isreal_subfield), Rx | apply (Rpow_int _ (Zneg p)), Rx].
    + apply Pos.eqb_eq in Ei. subst q. cbn [of_pos]. rewrite div1. apply Rpow_int, Rx.
Qed.

Lemma sound_list es :
  Forall Sx es -> forallb (inF cfn cbs okfn okb) es = true ->
  match check_list es with
  | Some (es', ts) => Forall2 deq es' es /\ (existsb is_complex ts = false -> Forall realv es) /\
                      Forall site_real (sites_list es)
  | None => True
  end.
Proof.
  induction 1 as [|x es Hx _ IH]; cbn [forallb C23_model.check_list sites_list]; intros G;
    [repeat split; constructor|].
  bsplit. specialize (Hx ltac:(assumption)). specialize (IH ltac:(assumption)).
  destruct (check x) as [[x' tx]|]; [|trivial]. destruct (check_list es) as [[es' ts]|]; [|trivial].
  destruct Hx as (Vx & Rx & Sx'), IH as (Vl & Rl & Sl).
  repeat split; [constructor; auto | | apply Forall_app; auto].
  cbn [existsb]. intros Hn. apply orb_false_elim in Hn. destruct Hn. constructor; auto.
Qed.

(* The value of a node is real when the values of the operands are; for goals [realv ...]. *)
Ltac real_tac := unfold realv; intros; cbn [den split_last]; try (apply R_ksum; intros ?); auto with rl.

Lemma check_sound : (forall e, Sx e) /\ (forall cn, Sc cn).
Proof.
  apply expr_cond_full_ind; try exact sound_Power;
    unfold Sx, Sc; intros; lazymatch goal with G : _ = true |- _ => cbn [inF inFc] in G end; try discriminate; bsplit;
    feed_guards; try rewrite check_ListTensor; cbn [C23_model.check C23_model.checkc].
  (* nodes typed by one of the rules, by that rule *)
  all: try lazymatch goal with
    | |- sound (d1 _ _) _ => refine (sound_d1 _ _ _ _ _ _ _); [cong1_tac | real_tac | reflexivity | auto]
    | |- sound (kc _ _ _) _ => refine (sound_kc _ _ _ _ _ _ _ _); [cong1_tac | real_tac | reflexivity | auto]
    | |- sound (dx _ _) _ => refine (sound_kc TComplex _ _ _ _ _ _ _); [cong1_tac | discriminate | reflexivity | auto]
    | |- sound (d2 _ _ _) _ => apply sound_d2; [cong2_tac | real_tac | reflexivity | auto | auto]
    | |- sound (c2 _ _ _) _ => apply sound_c2; [cong2_tac | real_tac | reflexivity | auto | auto]
    end.
  (* literals: real by closure of the reals under the field operations, or typed complex *)
  1-7: apply sound_leaf; try reflexivity; try discriminate; intros _ s rho c; cbn [den];
    auto using (sf_of_Z _ _ isreal_subfield), (sf_of_pos _ _ isreal_subfield), (sf_kdyad _ _ isreal_subfield) with rl.
  - (* Term *) apply sound_leaf; [|reflexivity]. intros Ht s rho c. apply Renv.
    unfold term_ty in *. destruct (Nat.eqb k 1 || Nat.leb 10 k); [reflexivity|discriminate].
  - (* Indexed: the type of the operand *)
    destruct (check a) as [[a' ta]|]; [|trivial].
    destruct H as (Va & Ra & Sa). repeat split; auto.
    + intros s rho c. cbn [den]. apply Va.
    + intros Ht s rho c. cbn [den]. apply Ra, Ht.
  - (* ListTensor *)
    pose proof (sound_list es H H0) as L. destruct (check_list es) as [[es' ts]|]; [|trivial].
    destruct L as (Vl & Rl & Sl). repeat split; auto using deq_ListTensor.
    intros Ht. apply realv_ListTensor, Rl, join_nc, Ht.
  - (* Conditional *)
    destruct (checkc c) as [[c' tc]|]; [|trivial]. destruct (check t) as [[t' tt]|]; [|trivial].
    destruct (check f) as [[f' tf]|]; [|trivial].
    destruct H as (Vc & Sc'), H0 as (Vt & Rt & St), H1 as (Vf & Rf & Sf).
    cbn. repeat split; [| |rewrite !Forall_app; auto].
    + intros s rho cc. cbn [den]. rewrite (Vc _ _), (Vt _ _ _), (Vf _ _ _). reflexivity.
    + rewrite join3. intros Ht. apply orb_false_elim in Ht. destruct Ht as [Ht Hf].
      apply orb_false_elim in Ht. destruct Ht as [_ Ht]. intros s rho cc. cbn [den]. apply Rcond; [apply Rt, Ht | apply Rf, Hf].
  - (* Math *)
    destruct (cfn f) eqn:Ef.
    + refine (sound_kc _ _ _ _ _ _ _ _); [cong1_tac | discriminate | reflexivity | auto].
    + refine (sound_d1 _ _ _ _ _ _ _); [cong1_tac | | reflexivity | auto].
      intros Ra s rho c. cbn [den]. apply Rfn; auto.
  - (* Bessel *)
    destruct (cbs k) eqn:Ek.
    + refine (sound_x2 _ _ _ _ _ _ _ _ _); [cong2_tac | reflexivity | auto | auto].
    + refine (sound_d2 _ _ _ _ _ _ _ _ _ _); [cong2_tac | | reflexivity | auto | auto].
      intros Rnu Ra s rho c. cbn [den]. apply Rbessel; auto.
  - (* NablaGrad *)
    refine (sound_d1 _ _ _ _ _ _ _); [| | reflexivity | auto].
    + intros x y E s rho c. cbn [den]. destruct c; [reflexivity|]. rewrite (E _ _ _). reflexivity.
    + intros Ra s rho c. cbn [den]. destruct c; [exact R0|]. apply RD, Ra.
  - (* Cmp *)
    unfold soundc. cbn [csites].
    destruct (check a) as [[a' ta]|]; [|trivial]. destruct (check b) as [[b' tb]|]; [|trivial].
    destruct H as (Va & Ra & Sa), H0 as (Vb & Rb & Sb).
    destruct (ordering op); cbn [app].
    + destruct (is_complex ta || is_complex tb) eqn:E; [exact I|].
      apply orb_false_elim in E. destruct E as [Ea Eb]. split.
      * intros s rho. cbn [denc]. rewrite (deq_mk_real a' a Va (Ra Ea) _ _ _), (deq_mk_real b' b Vb (Rb Eb) _ _ _). reflexivity.
      * constructor; [split; auto|]. apply Forall_app. auto.
    + split; [|apply Forall_app; auto]. intros s rho. cbn [denc]. rewrite (Va _ _), (Vb _ _). reflexivity.
  - (* AndC *)
    destruct (checkc a) as [[a' ta]|]; [|trivial]. destruct (checkc b) as [[b' tb]|]; [|trivial].
    destruct H as [Va Sa], H0 as [Vb Sb]. split; [|apply Forall_app; auto].
    intros s rho. cbn [denc]. rewrite (Va _ _), (Vb _ _). reflexivity.
  - (* OrC *)
    destruct (checkc a) as [[a' ta]|]; [|trivial]. destruct (checkc b) as [[b' tb]|]; [|trivial].
    destruct H as [Va Sa], H0 as [Vb Sb]. split; [|apply Forall_app; auto].
    intros s rho. cbn [denc]. rewrite (Va _ _), (Vb _ _). reflexivity.
  - (* NotC *)
    destruct (checkc a) as [[a' ta]|]; [|trivial].
    destruct H as [Va Sa]. split; [|exact Sa]. intros s rho. cbn [denc]. rewrite (Va _ _). reflexivity.
Qed.

(* C23_value: the Real(.) wraps do not change the value of any component *)
Theorem C23_value : forall e e' t, inF cfn cbs okfn okb e = true -> check e = Some (e', t) ->
  forall s rho c, DEN s rho e' c = DEN s rho e c.
Proof. intros e e' t G H. pose proof (proj1 check_sound e G) as S. rewrite H in S. apply S. Qed.

(* C23_types: nodetype real (or bool) => the value is real, for the input and the output *)
Theorem C23_types : forall e e' t, inF cfn cbs okfn okb e = true -> check e = Some (e', t) -> t <> TComplex ->
  forall s rho c, kim (DEN s rho e c) = k0 /\ kim (DEN s rho e' c) = k0.
Proof.
  intros e e' t G H Ht s rho c. pose proof (proj1 check_sound e G) as S. rewrite H in S.
  destruct S as (V & Re & _). rewrite (V _ _ _).
  assert (X : is_complex t = false) by (destruct t; try reflexivity; congruence). split; apply Re, X.
Qed.

(* C23_operands_real: in an accepted expression every ordering comparison / min / max, anywhere,
   compares real values *)
Theorem C23_operands_real : forall e e' t, inF cfn cbs okfn okb e = true -> check e = Some (e', t) ->
  forall a b, In (a, b) (sites e) ->
  forall s rho c, kim (DEN s rho a c) = k0 /\ kim (DEN s rho b c) = k0.
Proof.
  intros e e' t G H a b Hin s rho c. pose proof (proj1 check_sound e G) as S. rewrite H in S.
  destruct S as (_ & _ & Ss). rewrite Forall_forall in Ss. destruct (Ss _ Hin) as [Ra Rb].
  split; [apply Ra | apply Rb].
Qed.

End Sound.

(* instances.  Variant of the analysis: cfn_of false / cbs_of false = the pinned tree (only sqrt typed
   complex); cfn_of true / cbs_of true = the tree with fixes/C23-partial-mathfn.diff (sqrt, ln, acos, asin
   and all Bessel functions typed complex).  Math-function hypothesis: [total_real] (exp cos sin tan cosh
   sinh tanh atan erf map reals to reals: true in C), no Bessel hypothesis.
   - pinned + total_real: the fragment must exclude ln/acos/asin/Bessel nodes       (_partial)
   - pinned + not_sqrt  : hypothesis "ln, acos, asin, Bessel map reals to reals", FALSE in C (_realdomain)
   - fixed  + total_real: the fragment INCLUDES ln/acos/asin/Bessel nodes: the full statement (_fixed) *)
Definition C23_types_partial := fun A env D DX ki =>
  @C23_types A env D DX ki (cfn_of false) (cbs_of false) total_real false.
Definition C23_value_partial := fun A env D DX ki =>
  @C23_value A env D DX ki (cfn_of false) (cbs_of false) total_real false.
Definition C23_operands_real_partial := fun A env D DX ki =>
  @C23_operands_real A env D DX ki (cfn_of false) (cbs_of false) total_real false.
Definition C23_types_realdomain := fun A env D DX ki =>
  @C23_types A env D DX ki (cfn_of false) (cbs_of false) not_sqrt true.
Definition C23_operands_real_realdomain := fun A env D DX ki =>
  @C23_operands_real A env D DX ki (cfn_of false) (cbs_of false) not_sqrt true.
Definition C23_types_fixed := fun A env D DX ki =>
  @C23_types A env D DX ki (cfn_of true) (cbs_of true) total_real false.
Definition C23_value_fixed := fun A env D DX ki =>
  @C23_value A env D DX ki (cfn_of true) (cbs_of true) total_real false.
Definition C23_operands_real_fixed := fun A env D DX ki =>
  @C23_operands_real A env D DX ki (cfn_of true) (cbs_of true) total_real false.
(* the fragment of the fixed variant contains every math function and every Bessel function *)
Lemma inF_fixed_math f a : inF (cfn_of true) (cbs_of true) total_real false (Math f a)
                           = inF (cfn_of true) (cbs_of true) total_real false a.
Proof. destruct f; reflexivity. Qed.
Lemma inF_fixed_bessel k nu a : inF (cfn_of true) (cbs_of true) total_real false (Bessel k nu a)
  = inF (cfn_of true) (cbs_of true) total_real false nu && inF (cfn_of true) (cbs_of true) total_real false a.
Proof. reflexivity. Qed.
Print Assumptions C23_types_partial.
Print Assumptions C23_value_partial.
Print Assumptions C23_operands_real_partial.
Print Assumptions C23_types_realdomain.
Print Assumptions C23_types_fixed.
Print Assumptions C23_value_fixed.
Print Assumptions C23_operands_real_fixed.

(* Pinned variant, without the real-domain hypothesis the analysis is unsound: whenever the algebra has a
   real x whose logarithm is not real (x = -1 in C), the accepted comparison  ln(X) < 0  (X a geometric
   quantity, a terminal classified real, with the real value x) compares a non-real value. *)
Definition C23_witness : expr := Conditional (Cmp CLT (Math FLn (Term 10 0 [])) (Zero [] [])) (IntV 1) (IntV 2).
Theorem C23_types_refuted : forall (A : ualg) (D DX : nat -> A -> A) (ki x : A),
  kim x = k0 -> kim (kfn FLn x) <> k0 ->
  exists e e' t a b (env : side -> nat -> nat -> list nat -> A),
    check (cfn_of false) (cbs_of false) e = Some (e', t) /\ In (a, b) (sites e) /\
    (forall s k id c, term_ty k = TReal -> kim (env s k id c) = k0) /\
    forall s rho, kim (@den A env D DX ki s rho a []) <> k0.
Proof.
  intros A D DX ki x Hx Hln.
  exists C23_witness, (Conditional (Cmp CLT (Real (Math FLn (Term 10 0 []))) (Zero [] [])) (IntV 1) (IntV 2)),
         TReal, (Math FLn (Term 10 0 [])), (Zero [] []), (fun _ _ _ _ => x).
  split; [reflexivity|]. split; [left; reflexivity|]. split; [intros; exact Hx|].
  intros s rho. exact Hln.
Qed.
Print Assumptions C23_types_refuted.
(* ... and the fixed variant rejects that witness *)
Example C23_witness_rejected_fixed : check (cfn_of true) (cbs_of true) C23_witness = None.
Proof. reflexivity. Qed.
