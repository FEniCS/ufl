(** * C29 - n-ary canonical ordering: [sorted_expr] on any number of operands

    [ufl.sorting.sorted_expr(seq) = sorted(seq, key=cmp_to_key(cmp_expr))] is used on pairs by Sum / Product /
    Inner (C29_model.v) and on arbitrarily many expressions by [domain_analysis.build_integral_data]
    (integrands of one subdomain) and [formoperators.derivative] (keys of coefficient_derivatives).

    What is proved here, for every list length:
    - [C29_sorted_unique_gen] / [C29_sorted_unique]: under a consistent total preorder a list has at most
      one strictly sorted permutation - so the result of ANY sorting algorithm (CPython's timsort included; only
      "returns a sorted permutation" is used) does not depend on the order in which pairwise distinguishable
      operands are given;
    - [isort]: an executable stable insertion sort driven by a comparator; [C29_isort_perm], [C29_isort_sorted]
      for every comparator obeying the two laws of Section Generic, [C29_isortS_sorted] for [cmpg true];
    - [C29_isort_order_independent]: [isort] of two permutations of pairwise distinguishable operands is the
      same list.
    The generated correspondence files compare [isort] with the real [sorted_expr] on three of the six orders of
    operand triples (the harness runs the real code on all six). *)

From Coq Require Import NArith Bool List Sorting.Permutation Sorting.Sorted.
From UFLV Require Import Props.C29_model.
Import ListNotations.

(** ** generic part: any comparator whose triples are consistent *)

Section Generic.
  Variable A : Type.
  Variable c : A -> A -> comparison.
  Hypothesis c_opp : forall a b, c b a = CompOpp (c a b).
  Hypothesis c_t3 : forall a b d, t3 (c a b) (c b d) (c a d) = true.

  Definition lt (a b : A) : Prop := c a b = Lt.
  Definition le (a b : A) : Prop := c a b <> Gt.

  Lemma lt_irrefl a : ~ lt a a.
  Proof. unfold lt. intro H. pose proof (c_opp a a) as Ho. rewrite H in Ho. discriminate. Qed.

  Lemma le_lt_trans a b d : le a b -> lt b d -> lt a d.
  Proof.
    unfold le, lt. intros H1 H2. pose proof (c_t3 a b d) as H. rewrite H2 in H.
    destruct (c a b) eqn:E; simpl in H; try (apply ceqb_eq in H; exact H). contradiction.
  Qed.

  Lemma lt_le_trans a b d : lt a b -> le b d -> lt a d.
  Proof.
    unfold le, lt. intros H1 H2. pose proof (c_t3 a b d) as H. rewrite H1 in H.
    destruct (c b d) eqn:E; simpl in H; try (apply ceqb_eq in H; exact H). contradiction.
  Qed.

  Lemma le_trans a b d : le a b -> le b d -> le a d.
  Proof.
    unfold le. intros H1 H2 H3. pose proof (c_t3 a b d) as H. rewrite H3 in H.
    destruct (c a b) eqn:E1, (c b d) eqn:E2; simpl in H; try discriminate; contradiction.
  Qed.

  Lemma lt_trans a b d : lt a b -> lt b d -> lt a d.
  Proof. intros H1 H2. apply (lt_le_trans a b d H1). unfold le. rewrite H2. discriminate. Qed.

  Lemma lt_asym a b : lt a b -> ~ lt b a.
  Proof. intros H1 H2. exact (lt_irrefl a (lt_trans _ _ _ H1 H2)). Qed.

  (** a strictly sorted list has no repetition, and its head is below every member of the tail *)
  Lemma sorted_head_unique x l y l' :
    StronglySorted lt (x :: l) -> StronglySorted lt (y :: l') -> Permutation (x :: l) (y :: l') -> x = y.
  Proof.
    intros S1 S2 P. inversion S1 as [|? ? _ F1]; subst. inversion S2 as [|? ? _ F2]; subst.
    assert (I1 : In y (x :: l)) by (eapply Permutation_in; [apply Permutation_sym; exact P | left; reflexivity]).
    assert (I2 : In x (y :: l')) by (eapply Permutation_in; [exact P | left; reflexivity]).
    destruct I1 as [E|I1]; [exact E|]. destruct I2 as [E|I2]; [symmetry; exact E|].
    rewrite Forall_forall in F1, F2. exfalso. exact (lt_asym _ _ (F1 _ I1) (F2 _ I2)).
  Qed.

  Theorem C29_sorted_unique_gen : forall l1 l2,
    Permutation l1 l2 -> StronglySorted lt l1 -> StronglySorted lt l2 -> l1 = l2.
  Proof.
    induction l1 as [|x l1 IH]; intros l2 P S1 S2.
    - apply Permutation_nil in P. symmetry. exact P.
    - destruct l2 as [|y l2]; [apply Permutation_sym, Permutation_nil in P; discriminate|].
      pose proof (sorted_head_unique _ _ _ _ S1 S2 P) as E. subst y.
      f_equal. apply IH.
      + eapply Permutation_cons_inv. exact P.
      + inversion S1; assumption.
      + inversion S2; assumption.
  Qed.

  (** a list sorted for <= whose members are pairwise distinguishable is strictly sorted *)
  Definition pairwise_dist (l : list A) : Prop := ForallOrdPairs (fun a b => c a b <> Eq) l.

  Lemma le_sorted_strict l : StronglySorted le l -> pairwise_dist l -> StronglySorted lt l.
  Proof.
    induction 1 as [|x l S IH F]; intro D; [constructor|].
    inversion D as [|? ? Dx Dl]; subst. constructor; [apply IH; exact Dl|].
    rewrite Forall_forall in *. intros y Hy. specialize (F y Hy). specialize (Dx y Hy).
    unfold le, lt in *. destruct (c x y); try reflexivity; contradiction.
  Qed.

  (** being pairwise distinguishable does not depend on the order *)
  Definition dist_all (l : list A) : Prop :=
    forall l1 a l2 b l3, l = l1 ++ a :: l2 ++ b :: l3 -> c a b <> Eq.

  Lemma pairwise_dist_sym_in l : pairwise_dist l -> NoDup l ->
    forall a b, In a l -> In b l -> a <> b -> c a b <> Eq.
  Proof.
    induction 1 as [|x l Fx _ IH]; intros N a b Ia Ib Hab; [destruct Ia|].
    inversion N as [|? ? Nx Nl]; subst. rewrite Forall_forall in Fx.
    destruct Ia as [Ea|Ia], Ib as [Eb|Ib]; subst.
    - contradiction.
    - apply Fx. exact Ib.
    - intro H. apply (Fx a Ia). rewrite c_opp, H. reflexivity.
    - apply IH; assumption.
  Qed.

  (** ** the executable stable insertion sort *)
  Definition is_gt (x : comparison) : bool := match x with Gt => true | _ => false end.

  Fixpoint insert (x : A) (l : list A) : list A :=
    match l with
    | [] => [x]
    | y :: r => if is_gt (c x y) then y :: insert x r else x :: l
    end.

  (** [fold_left] over the input, inserting after equal elements would be the stable variant for an input
      processed left to right; we process right to left and insert BEFORE equal elements, which is stable too *)
  Fixpoint isort (l : list A) : list A :=
    match l with [] => [] | x :: r => insert x (isort r) end.

  Lemma insert_perm x l : Permutation (x :: l) (insert x l).
  Proof.
    induction l as [|y r IH]; simpl; [apply Permutation_refl|].
    destruct (is_gt (c x y)); [|apply Permutation_refl].
    eapply perm_trans; [apply perm_swap|]. apply perm_skip. exact IH.
  Qed.

  Theorem C29_isort_perm l : Permutation l (isort l).
  Proof.
    induction l as [|x r IH]; simpl; [constructor|].
    eapply perm_trans; [apply perm_skip; exact IH | apply insert_perm].
  Qed.

  Lemma insert_sorted x l : StronglySorted le l -> StronglySorted le (insert x l).
  Proof.
    induction 1 as [|y r S IH F]; simpl; [repeat constructor|].
    destruct (is_gt (c x y)) eqn:E.
    - (* y stays the head: it is below x, and below the rest as before *)
      constructor; [exact IH|]. rewrite Forall_forall in *. intros z Hz.
      apply (Permutation_in _ (Permutation_sym (insert_perm x r))) in Hz. destruct Hz as [<-|Hz]; [|apply F, Hz].
      unfold le. rewrite c_opp. destruct (c x y); [discriminate E | discriminate E | discriminate].
    - assert (Hxy : le x y) by (unfold le; destruct (c x y); discriminate).
      constructor; [constructor; assumption|]. constructor; [exact Hxy|].
      eapply Forall_impl; [|exact F]. intro z. apply le_trans, Hxy.
  Qed.

  Theorem C29_isort_sorted l : StronglySorted le (isort l).
  Proof. induction l as [|x r IH]; simpl; [constructor | apply insert_sorted; exact IH]. Qed.

  (** pairwise distinguishability as a property of the members (order free) *)
  Definition members_dist (l : list A) : Prop :=
    NoDup l /\ forall a b, In a l -> In b l -> a <> b -> c a b <> Eq.

  Lemma members_dist_perm l l' : Permutation l l' -> members_dist l -> members_dist l'.
  Proof.
    intros P [N D]. split; [eapply Permutation_NoDup; eassumption|].
    intros a b Ia Ib. apply D; eapply Permutation_in; try (apply Permutation_sym; exact P); assumption.
  Qed.

  Lemma members_dist_pairwise l : members_dist l -> pairwise_dist l.
  Proof.
    induction l as [|x r IH]; intros [N D]; [constructor|].
    inversion N as [|? ? Nx Nr]; subst. constructor.
    - rewrite Forall_forall. intros y Hy. apply D; [left; reflexivity | right; exact Hy|].
      intro E. subst y. contradiction.
    - apply IH. split; [exact Nr|]. intros a b Ia Ib. apply D; right; assumption.
  Qed.

  (** any two sorting results of two orderings of the same distinguishable operands coincide *)
  Theorem C29_sort_order_independent_gen : forall (sort1 sort2 : list A -> list A) l l',
    (forall m, Permutation m (sort1 m)) -> (forall m, StronglySorted le (sort1 m)) ->
    (forall m, Permutation m (sort2 m)) -> (forall m, StronglySorted le (sort2 m)) ->
    Permutation l l' -> members_dist l -> sort1 l = sort2 l'.
  Proof.
    intros sort1 sort2 l l' P1 S1 P2 S2 P D.
    apply C29_sorted_unique_gen.
    - eapply perm_trans; [apply Permutation_sym, P1|]. eapply perm_trans; [exact P | apply P2].
    - apply le_sorted_strict; [apply S1|]. apply members_dist_pairwise.
      eapply members_dist_perm; [apply P1 | exact D].
    - apply le_sorted_strict; [apply S2|]. apply members_dist_pairwise.
      eapply members_dist_perm; [|exact D]. eapply perm_trans; [exact P | apply P2].
  Qed.

  Theorem C29_isort_order_independent_gen l l' :
    Permutation l l' -> members_dist l -> isort l = isort l'.
  Proof.
    intros P D.
    exact (C29_sort_order_independent_gen isort isort l l' C29_isort_perm C29_isort_sorted
             C29_isort_perm C29_isort_sorted P D).
  Qed.
End Generic.

(** ** instance: the repaired comparator [cmpS] on all trees *)

Definition isortg (s : bool) : list tree -> list tree := isort tree (cmpg s).

Lemma cmpS_opp a b : cmpS b a = CompOpp (cmpS a b).
Proof. exact (C29_cmp_antisym true a b). Qed.

Theorem C29_sorted_unique : forall l1 l2,
  Permutation l1 l2 -> StronglySorted (lt tree cmpS) l1 -> StronglySorted (lt tree cmpS) l2 -> l1 = l2.
Proof. apply C29_sorted_unique_gen; [exact cmpS_opp | exact C29_cmpS_consistent]. Qed.

(** every sorting procedure (timsort, insertion sort, ...) run on two orderings of the same pairwise
    distinguishable expressions returns the same list *)
Theorem C29_sort_order_independent : forall (sort : list tree -> list tree) l l',
  (forall m, Permutation m (sort m)) -> (forall m, StronglySorted (le tree cmpS) (sort m)) ->
  Permutation l l' -> members_dist tree cmpS l -> sort l = sort l'.
Proof.
  intros sort l l' P S.
  apply C29_sort_order_independent_gen; [exact cmpS_opp | exact C29_cmpS_consistent | assumption ..].
Qed.

Theorem C29_isort_order_independent : forall l l',
  Permutation l l' -> members_dist tree cmpS l -> isortg true l = isortg true l'.
Proof. apply C29_isort_order_independent_gen; [exact cmpS_opp | exact C29_cmpS_consistent]. Qed.

Theorem C29_isortS_sorted : forall l, StronglySorted (le tree cmpS) (isortg true l).
Proof. apply C29_isort_sorted; [exact cmpS_opp | exact C29_cmpS_consistent]. Qed.

Lemma NoDup_map_In_inj {A B} (f : A -> B) l :
  NoDup (map f l) -> forall a b, In a l -> In b l -> f a = f b -> a = b.
Proof.
  induction l as [|x r IH]; simpl; intros N a b Ia Ib E; [destruct Ia|].
  inversion N as [|? ? Nx Nr]; subst.
  destruct Ia as [->|Ia], Ib as [->|Ib]; [reflexivity | | | exact (IH Nr a b Ia Ib E)]; exfalso; apply Nx.
  - rewrite E. apply in_map, Ib.
  - rewrite <- E. apply in_map, Ia.
Qed.

(** operands are distinguishable exactly when they differ in more than index / label numbers *)
Lemma C29_members_dist_erase l :
  NoDup (map erase l) -> members_dist tree cmpS l.
Proof.
  intro N. split; [exact (NoDup_map_inv _ _ N)|].
  intros a b Ia Ib Hab H. apply Hab, (NoDup_map_In_inj erase l N a b Ia Ib), C29_cmpS_eq_iff, H.
Qed.

(** ** [domain_analysis.ExprTupleKey]: (integrand, metadata) keys, compared lexicographically

    [ExprTupleKey.__lt__] compares the expressions with [cmp_expr] and, when that answers 0, the canonicalised
    metadata with Python's [<].  The metadata order is a Section variable: any comparator obeying the two laws
    (tuples of strings / numbers under Python's lexicographic [<] do).  The resulting key comparator obeys the
    same two laws, so the generic theorems apply to [sorted(by_cdid.values(), key=ExprTupleKey)]. *)
Section TupleKey.
  Variable M : Type.
  Variable cm : M -> M -> comparison.
  Hypothesis cm_opp : forall a b, cm b a = CompOpp (cm a b).
  Hypothesis cm_t3 : forall a b d, t3 (cm a b) (cm b d) (cm a d) = true.

  Definition key_cmp (x y : tree * M) : comparison := then_ (cmpS (fst x) (fst y)) (cm (snd x) (snd y)).
  (** what [__lt__] answers *)
  Definition key_lt (x y : tree * M) : bool := is_lt (key_cmp x y).

  Lemma key_cmp_opp x y : key_cmp y x = CompOpp (key_cmp x y).
  Proof. unfold key_cmp. rewrite then_opp, <- cmpS_opp, <- cm_opp. reflexivity. Qed.

  Lemma key_cmp_t3 x y z : t3 (key_cmp x y) (key_cmp y z) (key_cmp x z) = true.
  Proof. unfold key_cmp. apply t3_then; [apply C29_cmpS_consistent | intros _ _; apply cm_t3]. Qed.

  Theorem C29_tuple_key_sort_order_independent : forall (sort : list (tree * M) -> list (tree * M)) l l',
    (forall m, Permutation m (sort m)) -> (forall m, StronglySorted (le _ key_cmp) (sort m)) ->
    Permutation l l' -> members_dist _ key_cmp l -> sort l = sort l'.
  Proof.
    intros sort l l' P S. apply C29_sort_order_independent_gen; [exact key_cmp_opp | exact key_cmp_t3 | assumption ..].
  Qed.

  (** keys are distinguishable as soon as the integrands are, or the metadata are *)
  Lemma key_cmp_Eq x y : key_cmp x y = Eq <-> cmpS (fst x) (fst y) = Eq /\ cm (snd x) (snd y) = Eq.
  Proof. unfold key_cmp. apply then_eq_Eq. Qed.
End TupleKey.

Print Assumptions C29_tuple_key_sort_order_independent.

(** non-vacuity: three distinguishable leaves, three of their orders sort to one list *)
Example C29_isort_example :
  let a := Leaf 3 (TCoef 5 0) in let b := Leaf 3 (TCoef 2 0) in let d := Leaf 7 (TCoef 1 0) in
  isortg true [a; b; d] = [b; a; d] /\ isortg true [d; a; b] = [b; a; d] /\ isortg true [b; d; a] = [b; a; d] /\
  NoDup (map erase [a; b; d]).
Proof.
  cbv zeta. repeat split; try (vm_compute; reflexivity).
  repeat constructor; simpl; intuition discriminate.
Qed.

(** the name under which the generated correspondence files evaluate [isortg]; they compare the result with
    what the real [sorted_expr] returned for the same operand order *)
Definition sort_model (s : bool) (l : list tree) : list tree := isortg s l.

Print Assumptions C29_sorted_unique.
Print Assumptions C29_sort_order_independent.
Print Assumptions C29_isort_order_independent.
Print Assumptions C29_isortS_sorted.
Print Assumptions C29_members_dist_erase.
Print Assumptions C29_isort_example.
