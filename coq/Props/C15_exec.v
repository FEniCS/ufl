(* C15, executable instance of the model for the structural correspondence (tie T3).
   Integrands are multisets of tags (sorted lists of naturals: tag k stands for the k-th distinct
   Constant/Coefficient used as an integrand in the generated form), metadata are indices into the
   case's metadata pool and [canon_tab tab] is the table of classes that the harness computed with
   the REAL hash(canonicalize_metadata(.)) on that pool. *)
Require Import List Arith Bool.
Import ListNotations.
Require Import UFLV.Props.C15_model.

Definition tags := list nat.
Definition tadd (a b : tags) : tags := isort (a ++ b).
Definition tags_dec : forall a b : tags, {a = b} + {a <> b} := list_eq_dec Nat.eq_dec.

Definition canon_tab (tab : list nat) (m : nat) : nat := nth m tab m.

Definition run (append : bool) (tab : list nat) (l : list (integral tags nat)) : list (ointegral tags nat) :=
  group_form_integrals [] tadd (canon_tab tab) Nat.eq_dec tags_dec append l.
Definition run_fd (append : bool) (tab : list nat) (l : list (integral tags nat)) : list (ointegral tags nat) :=
  integral_data_integrals (build_integral_data (run append tab l)).

(* key: domain, type, subdomain, coordinate-derivative class, metadata class *)
Definition key5 := (nat * nat * osid * nat * nat)%type.
Definition key5_dec : forall a b : key5, {a = b} + {a <> b} :=
  prod_dec (prod_dec (prod_dec (prod_dec Nat.eq_dec Nat.eq_dec) osid_dec) Nat.eq_dec) Nat.eq_dec.
Definition k5eqb := keqb key5_dec.

Definition okeys (cls : nat -> nat) (o : ointegral tags nat) : list key5 :=
  map (fun s => (odom o, otyp o, s, ocd o, cls (omd o))) (osids o).
Definition collect (cls : nat -> nat) (k : key5) (out : list (ointegral tags nat)) : tags :=
  isort (flat_map (fun o => flat_map (fun k' => if k5eqb k' k then oval o else []) (okeys cls o)) out).
Definition table (cls : nat -> nat) (out : list (ointegral tags nat)) : list (key5 * tags) :=
  map (fun k => (k, collect cls k out)) (ukeys key5_dec (flat_map (okeys cls) out)).

(* the decoded output of the implementation ([expected], any order) is the model's table *)
Definition agrees (cls : nat -> nat) (out : list (ointegral tags nat)) (expected : list (key5 * tags)) : bool :=
  forallb (fun e => if tags_dec (collect cls (fst e) out) (snd e) then true else false) expected
  && forallb (fun o => forallb (fun k => existsb (fun e => k5eqb k (fst e)) expected) (okeys cls o)) out.

(* [tab] is injective relative to [ref]:  tab i = tab j -> ref i = ref j  for i, j < length tab.
   With ref = identity of the metadata values this is the guard canon_inj_on of
   C15_no_merge_partial; with ref = the pinned str()-rendering it says that the implementation
   identifies no more metadata than the known finding describes. *)
Definition refines (tab ref : list nat) : bool :=
  forallb (fun i => forallb (fun j => negb (nth i tab i =? nth j tab j) || (nth i ref i =? nth j ref j))
                            (seq 0 (length tab))) (seq 0 (length tab)).

Lemma refines_sound tab ref : refines tab ref = true ->
  forall i j, i < length tab -> j < length tab -> nth i tab i = nth j tab j -> nth i ref i = nth j ref j.
Proof.
  unfold refines. rewrite forallb_forall. intros H i j Hi Hj E.
  specialize (H i (proj2 (in_seq _ _ _) (conj (Nat.le_0_l _) Hi))).
  rewrite forallb_forall in H.
  specialize (H j (proj2 (in_seq _ _ _) (conj (Nat.le_0_l _) Hj))).
  apply orb_true_iff in H. destruct H as [H|H].
  - apply negb_true_iff, Nat.eqb_neq in H. contradiction.
  - apply Nat.eqb_eq; exact H.
Qed.

(* the guard [canon_inj_on] of C15_no_merge_partial, for [canon_tab tab] on the metadata of a case;
   [refines_inj] obtains it from a [refines] check against the identity table *)
Definition inj_on_case (tab : list nat) (l : list (integral tags nat)) : Prop :=
  forall x y, In x l -> In y l -> canon_tab tab (imd x) = canon_tab tab (imd y) -> imd x = imd y.

Lemma refines_inj tab l : refines tab (seq 0 (length tab)) = true ->
  (forall x, In x l -> imd x < length tab) -> inj_on_case tab l.
Proof.
  intros H Hb x y Hx Hy E. unfold canon_tab in E.
  pose proof (refines_sound _ _ H (imd x) (imd y) (Hb _ Hx) (Hb _ Hy) E) as R.
  rewrite !seq_nth in R by (apply Hb; assumption). exact R.
Qed.

Print Assumptions refines_sound.
