(* C14, hand-written theorems about the model of the arity checker (C14_model.v):
   for ALL expressions and every UFL algebra, an accepted integrand is (conjugate-)linear, jointly in
   the arguments of each number, and contains exactly the arguments of its arity.
   The model follows /repo's handlers, in which a list tensor with a non-zero component without arguments
   next to components with arguments is rejected, and Dot books neither operand as conjugated.
   [C14_list_tensor_constant_rejected] and [C14_dot_not_conjugating] give for each of these two clauses an
   expression that is not (conjugate-)linear and that the clause makes the model reject. *)
Require Import UFLV.Core.Facts UFLV.Props.C14_model.

(* ---- arities as finite sets ---- *)

Section SortedInsert.
Context {T : Type} (eqb ltb : T -> T -> bool) (insert : T -> list T -> list T)
        (leqb : list T -> list T -> bool).
Hypothesis eqb_eq : forall x y, eqb x y = true -> x = y.
Hypothesis insert_eq : forall x l, insert x l =
  match l with
  | [] => [x]
  | y :: t => if eqb x y then l else if ltb x y then x :: l else y :: insert x t
  end.
Hypothesis leqb_eq : forall a b, leqb a b =
  match a, b with [], [] => true | x :: s, y :: t => eqb x y && leqb s t | _, _ => false end.

Lemma In_insert z x l : In z (insert x l) <-> x = z \/ In z l.
Proof.
  induction l as [|y t IH]; rewrite insert_eq; [reflexivity|].
  destruct (eqb x y) eqn:E; [apply eqb_eq in E; subst y|destruct (ltb x y)].
  - split; [right; assumption|intros [<-|H]; [left; reflexivity|exact H]].
  - reflexivity.
  - cbn [In]. rewrite IH. split; intros [H|[H|H]]; auto.
Qed.

Lemma In_fold_insert z a b : In z (fold_right insert b a) <-> In z a \/ In z b.
Proof.
  induction a as [|x t IH]; cbn [fold_right In].
  - split; [right; assumption|intros [[]|H]; exact H].
  - rewrite In_insert, IH. symmetry. apply or_assoc.
Qed.

Lemma leqb_true a : forall b, leqb a b = true -> a = b.
Proof.
  induction a as [|x s IH]; intros [|y t]; rewrite leqb_eq; try discriminate; [reflexivity|].
  intros H. apply andb_prop in H. destruct H as [H1 H2]. apply eqb_eq in H1. apply IH in H2. congruence.
Qed.
End SortedInsert.

Lemma pair_eqb_eq x y : pair_eqb x y = true -> x = y.
Proof.
  destruct x as [i f], y as [j g]. unfold pair_eqb. cbn [fst snd]. intros H.
  apply andb_prop in H. destruct H as [H1 H2]. apply Nat.eqb_eq in H1. apply eqb_prop in H2. congruence.
Qed.

Lemma ins_eq x l : ins x l =
  match l with [] => [x] | y :: t => if pair_eqb x y then l else if pair_ltb x y then x :: l else y :: ins x t end.
Proof. destruct l; reflexivity. Qed.
Lemma ins_nat_eq x l : ins_nat x l =
  match l with [] => [x] | y :: t => if Nat.eqb x y then l else if Nat.ltb x y then x :: l else y :: ins_nat x t end.
Proof. destruct l; reflexivity. Qed.

Lemma In_union z a b : In z (a_union a b) <-> In z a \/ In z b.
Proof. apply (In_fold_insert pair_eqb pair_ltb ins pair_eqb_eq ins_eq). Qed.

Lemma In_conj i f a : In (i, f) (a_conj a) <-> In (i, negb f) a.
Proof.
  unfold a_conj. rewrite (In_fold_insert pair_eqb pair_ltb ins pair_eqb_eq ins_eq), in_map_iff. split.
  - intros [[[j g] [[= <- <-] H]]|[]]. rewrite negb_involutive. exact H.
  - intros H. left. exists (i, negb f). split; [unfold flip; cbn [fst snd]; rewrite negb_involutive; reflexivity|exact H].
Qed.

Lemma aeqb_eq a b : aeqb a b = true -> a = b.
Proof. apply (leqb_true pair_eqb aeqb pair_eqb_eq). intros [|? ?] [|? ?]; reflexivity. Qed.

Lemma nat_list_eqb_eq a b : nat_list_eqb a b = true -> a = b.
Proof.
  apply (leqb_true Nat.eqb nat_list_eqb (fun x y => proj1 (Nat.eqb_eq x y))). intros [|? ?] [|? ?]; reflexivity.
Qed.

Section Sets.
Variable num : nat -> nat.

Lemma In_nums n a : In n (nums num a) <-> exists p, In p a /\ num (fst p) = n.
Proof.
  unfold nums.
  rewrite (In_fold_insert Nat.eqb Nat.ltb ins_nat (fun x y => proj1 (Nat.eqb_eq x y)) ins_nat_eq), in_map_iff.
  split; [intros [[p [E H]]|[]]; eauto | intros [p [H E]]; eauto].
Qed.

Lemma nums_nil a : nums num a = [] -> a = [].
Proof.
  destruct a as [|p q]; [reflexivity|]. intros E.
  assert (H : In (num (fst p)) (nums num (p :: q))) by (apply In_nums; exists p; cbn [In]; auto).
  rewrite E in H. destruct H.
Qed.

Lemma all_equal_spec ns x y : all_equal ns = true -> In x ns -> In y ns -> x = y.
Proof.
  destruct ns as [|z t]; [intros _ []|]. cbn [all_equal]. intros H Hx Hy.
  rewrite forallb_forall in H.
  assert (E : forall w, In w (z :: t) -> z = w).
  { intros w [<-|Hw]; [reflexivity|]. apply nat_list_eqb_eq, H, Hw. }
  rewrite <- (E x Hx), <- (E y Hy). reflexivity.
Qed.

Lemma overlap_false a b :
  overlap num a b = false -> forall x y, In x a -> In y b -> num (fst x) <> num (fst y).
Proof.
  unfold overlap. intros H x y Hx Hy E. rewrite <- not_true_iff_false in H. apply H.
  apply existsb_exists. exists y. split; [exact Hy|]. apply existsb_exists. exists x. split; [exact Hx|].
  apply Nat.eqb_eq. symmetry. exact E.
Qed.

(* what the handlers say when they accept *)
Lemma h_sum_ok a b c : h_sum a b = OK c -> b = a /\ c = a.
Proof. unfold h_sum. destruct (aeqb a b) eqn:E; [|discriminate]. apply aeqb_eq in E. intros [= <-]. auto. Qed.

Lemma h_division_ok a b c : h_division a b = OK c -> b = [] /\ c = a.
Proof. unfold h_division. destruct b; [|discriminate]. intros [= <-]. auto. Qed.

Lemma h_conditional_ok t f a b c :
  h_conditional t f a b = OK c ->
  (is_zero f = true /\ c = a) \/ (is_zero t = true /\ c = b) \/ (b = a /\ c = a).
Proof.
  unfold h_conditional.
  destruct (nonempty a && is_zero f) eqn:C1; [apply andb_prop in C1; intros [= <-]; tauto|].
  destruct (nonempty b && is_zero t) eqn:C2; [apply andb_prop in C2; intros [= <-]; tauto|].
  intros E. apply h_sum_ok in E. tauto.
Qed.

Lemma h_product_ok a b c :
  h_product num a b = OK c ->
  (forall p, In p c <-> In p a \/ In p b) /\
  (forall x y, In x a -> In y b -> num (fst x) <> num (fst y)).
Proof.
  unfold h_product. destruct a as [|a0 a']; [|destruct b as [|b0 b']].
  - intros [= <-]. split; [intros p; cbn [In]; tauto|intros x y []].
  - intros [= <-]. split; [intros p; cbn [In]; tauto|intros x y _ []].
  - destruct (overlap num (a0 :: a') (b0 :: b')) eqn:Ho; [discriminate|].
    destruct (_ && _); [|discriminate].
    intros [= <-]. split; [intros p; exact (In_union p (a0 :: a') (b0 :: b'))|apply overlap_false, Ho].
Qed.

Lemma In_fold_union z (l : list ar) : In z (fold_right a_union [] l) <-> exists a, In a l /\ In z a.
Proof.
  induction l as [|x t IH]; cbn [fold_right In].
  - split; [intros []|intros [a [[] _]]].
  - rewrite In_union, IH. split.
    + intros [H|[a [Ha Hz]]]; [exists x; auto|exists a; auto].
    + intros [a [[<-|Ha] Hz]]; [left; auto|right; exists a; auto].
Qed.

(* the operand arities are given as a function [f] of the operands *)
Lemma h_list_tensor_ok es (f : expr -> ar) c :
  h_list_tensor num es (map f es) = OK c ->
  (forall p, In p c <-> exists x, In x es /\ In p (f x)) /\
  (c <> [] -> forall x y, In x es -> In y es -> f x <> [] -> f y <> [] -> nums num (f x) = nums num (f y)) /\
  (c <> [] -> forall x, In x es -> f x = [] -> is_zero x = true).
Proof.
  assert (U : forall p, In p (fold_right a_union [] (map f es)) <-> exists x, In x es /\ In p (f x)).
  { intros p. rewrite In_fold_union. split.
    - intros [a [Ha Hp]]. apply in_map_iff in Ha. destruct Ha as [x [<- Hx]]. eauto.
    - intros [x [Hx Hp]]. exists (f x). split; [apply in_map, Hx|exact Hp]. }
  unfold h_list_tensor. destruct (fold_right a_union [] (map f es)) as [|p0 t] eqn:E.
  - intros [= <-]. split; [exact U|split; intros F; congruence].
  - destruct (existsb bad_component (combine es (map f es))) eqn:Hb; [discriminate|].
    destruct (all_equal (filter nonempty (map (nums num) (map f es)))) eqn:Ha; [|discriminate].
    intros [= <-]. split; [exact U|split; intros _].
    + intros x y Hx Hy Hnx Hny.
      assert (N : forall w, In w es -> f w <> [] ->
                  In (nums num (f w)) (filter nonempty (map (nums num) (map f es)))).
      { intros w Hw Hne. apply filter_In. split; [apply in_map, in_map, Hw|].
        destruct (nums num (f w)) eqn:En; [apply nums_nil in En; contradiction|reflexivity]. }
      apply (all_equal_spec _ _ _ Ha); apply N; assumption.
    + intros x Hx Ex. rewrite <- not_true_iff_false in Hb. destruct (is_zero x) eqn:Z; [reflexivity|].
      exfalso. apply Hb, existsb_exists. exists (x, f x). split.
      * clear -Hx. induction es as [|e t IH]; [destruct Hx|]. cbn [map combine In].
        destruct Hx as [<-|Hx]; auto.
      * unfold bad_component. cbn [fst snd]. rewrite Ex, Z. reflexivity.
Qed.

End Sets.

(* ---- the node equation of [arity], read backwards ---- *)

Lemma has_arg_false l : existsb is_argp l = false -> forall i, ~ In (1, i) l.
Proof.
  intros H i Hin. rewrite <- not_true_iff_false in H. apply H, existsb_exists.
  exists (1, i). split; [exact Hin|reflexivity].
Qed.

Lemma all_ok_OK l : all_ok (map OK l) = Some l.
Proof. induction l as [|a l IH]; cbn [map all_ok]; [|rewrite IH]; reflexivity. Qed.

Section Inversion.
Variable num : nat -> nat.

(* the arity of an accepted expression *)
Definition ar_of (e : expr) : ar := match arity num e with OK a => a | Err => [] end.

(* the operands whose arities the handler of [e] reads *)
Definition ops (e : expr) : list expr :=
  match class_handler (cls_of e) with
  | H_terminal | H_argument | H_nonlinear => []
  | _ => asubs e
  end.

Lemma ops_size e x : In x (ops e) -> size x < size e.
Proof. unfold ops. destruct (class_handler (cls_of e)); try intros []; apply asubs_size. Qed.

Lemma all_ok_arity es l :
  all_ok (map (arity num) es) = Some l ->
  l = map ar_of es /\ forall x, In x es -> arity num x = OK (ar_of x).
Proof.
  revert l. induction es as [|e t IH]; intros l; cbn [map all_ok].
  - intros [= <-]. split; [reflexivity|intros x []].
  - destruct (arity num e) as [a|] eqn:Ea; [|discriminate].
    destruct (all_ok (map (arity num) t)) as [l'|]; [|discriminate]. intros [= <-].
    destruct (IH l' eq_refl) as [-> Ht].
    assert (Ee : ar_of e = a) by (unfold ar_of; rewrite Ea; reflexivity).
    split; [cbn [map]; rewrite Ee; reflexivity|]. intros x [<-|Hx]; [rewrite Ee; exact Ea|apply Ht, Hx].
Qed.

(* an accepted node: every operand that the handler reads is accepted, and the handler accepts their arities *)
Lemma arity_inv e C :
  arity num e = OK C ->
  apply_handler num (class_handler (cls_of e)) e (map OK (map ar_of (asubs e))) = OK C /\
  forall x, In x (ops e) -> arity num x = OK (ar_of x).
Proof.
  rewrite arity_eq. unfold ops. destruct (class_handler (cls_of e)); cbn [apply_handler]; intros E;
    try (split; [exact E|intros x []]);
    (destruct (all_ok (map (arity num) (asubs e))) as [l|] eqn:El; [|discriminate]);
    apply all_ok_arity in El; destruct El as [-> Hops]; (split; [|exact Hops]);
    rewrite all_ok_OK; exact E.
Qed.

Lemma apply_list_tensor e l C :
  apply_handler num H_list_tensor e (map OK l) = OK C -> h_list_tensor num (asubs e) l = OK C.
Proof. cbn [apply_handler]. rewrite all_ok_OK. trivial. Qed.

(* terminals other than arguments, and nonlinear operators: no argument below and the empty arity *)
Definition leafb (h : hkind) (e : expr) : bool :=
  match h with H_terminal => negb (has_arg e) | H_nonlinear => true | _ => false end.

Lemma leaf_nil h e rs C :
  apply_handler num h e rs = OK C -> leafb h e = true -> has_arg e = false /\ C = [].
Proof.
  destruct h; try discriminate; cbn [leafb apply_handler].
  - intros [= <-] H. apply negb_true_iff in H. auto.
  - destruct (has_arg e); [discriminate|]. intros [= <-] _. auto.
Qed.

End Inversion.

(* ---- exactness: the arity of an accepted expression lists exactly the arguments that occur ---- *)

Definition hasid (A : ar) (i : nat) : Prop := exists f, In (i, f) A.

Lemma hasid_conj A i : hasid (a_conj A) i <-> hasid A i.
Proof.
  split; intros [f H].
  - apply In_conj in H. exists (negb f). exact H.
  - exists (negb f). apply In_conj. rewrite negb_involutive. exact H.
Qed.

Lemma hasid_union A B C i :
  (forall p, In p C <-> In p A \/ In p B) -> hasid C i <-> hasid A i \/ hasid B i.
Proof.
  intros H. split.
  - intros [f Hf]. apply H in Hf. destruct Hf; [left|right]; exists f; assumption.
  - intros [[f Hf]|[f Hf]]; exists f; apply H; auto.
Qed.

Section Exact.
Variable num : nat -> nat.

Definition exact (e : expr) (A : ar) : Prop :=
  forall i, (exists f, In (i, f) A) <-> In (1, i) (terms e).

Lemma exact_nil e : has_arg e = false -> exact e [].
Proof.
  intros H i. split; [intros [f []]|]. intros Hin. exfalso. exact (has_arg_false _ H i Hin).
Qed.

Lemma exact_nil_inv e : exact e [] -> forall i, ~ In (1, i) (terms e).
Proof. intros H i Hin. apply H in Hin. destruct Hin as [f []]. Qed.

Lemma exact2 a b A B C :
  exact a A -> exact b B -> (forall i, hasid C i <-> hasid A i \/ hasid B i) ->
  forall i, hasid C i <-> In (1, i) (terms a ++ terms b).
Proof. intros Ha Hb Hc i. rewrite in_app_iff, <- (Ha i), <- (Hb i). apply Hc. Qed.

(* the binary handlers collect the arguments of both operands *)
Lemma bin_ids h e A B C :
  apply_handler num h e [OK A; OK B] = OK C ->
  match h with H_sum | H_product | H_division | H_inner | H_outer | H_dot => True | _ => False end ->
  forall i, hasid C i <-> hasid A i \/ hasid B i.
Proof.
  destruct h; try contradiction; cbn [apply_handler all_ok]; intros E _ i.
  - apply h_sum_ok in E. destruct E as [-> ->]. tauto.
  - apply h_division_ok in E. destruct E as [-> ->]. split; [auto|intros [H|[f []]]; exact H].
  - apply (hasid_union _ _ _ i), (h_product_ok num), E.
  - rewrite (hasid_union _ _ _ i (proj1 (h_product_ok num _ _ _ E))), hasid_conj. reflexivity.
  - rewrite (hasid_union _ _ _ i (proj1 (h_product_ok num _ _ _ E))), hasid_conj. reflexivity.
  - apply (hasid_union _ _ _ i), (h_product_ok num), E.
Qed.

Theorem arity_exact : forall e A, arity num e = OK A -> exact e A.
Proof.
  induction e as [e IH] using size_ind. intros C E.
  destruct (arity_inv num _ _ E) as [E' Hops].
  assert (X : forall x, In x (ops e) -> exact x (ar_of num x)).
  { intros x Hx. apply IH; [apply ops_size, Hx|apply Hops, Hx]. }
  clear IH Hops E.
  destruct e; cbn [cls_of class_handler asubs subs map ops] in E', X.
  (* terminals and nonlinear operators *)
  all: try (destruct (leaf_nil num _ _ _ _ E' eq_refl) as [Hh ->]; exact (exact_nil _ Hh)).
  (* binary operators *)
  all: try exact (exact2 _ _ _ _ _ (X _ (or_introl eq_refl)) (X _ (or_intror (or_introl eq_refl)))
                         (bin_ids _ _ _ _ _ E' I)).
  (* operators that pass the arity of their operand on *)
  all: cbn [apply_handler all_ok] in E'; try (injection E' as <-; exact (X _ (or_introl eq_refl))).
  - (* Term *)
    destruct k as [|[|[|k]]]; cbn [class_handler apply_handler] in E'; injection E' as <-; intros i; cbn [terms In].
    + split; [intros [f []]|intros [[=]|[]]].
    + split; [intros [f [[= <- _]|[]]]; auto|intros [[= <-]|[]]; exists false; auto].
    + split; [intros [f []]|intros [[=]|[]]].
    + split; [intros [f []]|intros [[=]|[]]].
  - (* Conj *)
    injection E' as <-. intros i. rewrite <- (X e (or_introl eq_refl) i). apply hasid_conj.
  - (* ListTensor *)
    apply apply_list_tensor, h_list_tensor_ok in E'. destruct E' as [Hc _].
    intros i. rewrite terms_ListTensor, lterms_in. split.
    + intros [f Hf]. apply Hc in Hf. destruct Hf as [x [Hx Hf]]. exists x. split; [exact Hx|].
      apply (X x Hx). exists f. exact Hf.
    + intros [x [Hx Hi]]. apply (X x Hx) in Hi. destruct Hi as [f Hf]. exists f. apply Hc. eauto.
  - (* Conditional: no argument in the condition; a dropped branch is a Zero *)
    destruct (has_arg_c c) eqn:Hc; [discriminate|]. pose proof (has_arg_false _ Hc) as Hc'.
    pose proof (X e1 (or_introl eq_refl)) as H1. pose proof (X e2 (or_intror (or_introl eq_refl))) as H2.
    assert (G : forall i, hasid C i <-> hasid (ar_of num e1) i \/ hasid (ar_of num e2) i).
    { intros i. apply h_conditional_ok in E'. destruct E' as [[Z ->]|[[Z ->]|[E ->]]].
      - destruct e2; try discriminate. pose proof (proj1 (H2 i)). cbn [terms In] in *. tauto.
      - destruct e1; try discriminate. pose proof (proj1 (H1 i)). cbn [terms In] in *. tauto.
      - rewrite E. tauto. }
    intros i. cbn [terms]. rewrite !in_app_iff, <- (H1 i), <- (H2 i). specialize (G i). specialize (Hc' i).
    unfold hasid in G. tauto.
  - (* Restricted *)
    destruct plus; cbn [class_handler apply_handler all_ok] in E'; injection E' as <-; exact (X _ (or_introl eq_refl)).
Qed.

End Exact.

Lemma no_arg_existsb l : (forall i, ~ In (1, i) l) -> existsb is_argp l = false.
Proof.
  intros H. destruct (existsb is_argp l) eqn:E; [|reflexivity].
  apply existsb_exists in E. destruct E as [[k i] [Hin Hk]]. unfold is_argp in Hk. cbn in Hk.
  apply Nat.eqb_eq in Hk. subst k. exfalso. exact (H i Hin).
Qed.

(* ---- soundness ---- *)

Section Linear.
Variable A : ualg.
Add Field AfC14s : (kfield A).
Open Scope K_scope.
Variable num : nat -> nat.
Variables D DX : nat -> A -> A.
Variable ki : A.
Variable n : nat.            (* the argument number under consideration *)
Variable sc : A.             (* the scalar *)

(* conjugation is an involutive ring morphism *)
Hypothesis conj_add : forall x y : A, kconj (x + y) = kconj x + kconj y.
Hypothesis conj_mul : forall x y : A, kconj (x * y) = kconj x * kconj y.
Hypothesis conj_inv : forall x : A, kconj (kconj x) = x.
(* derivatives are additive and the scalar is a constant *)
Hypothesis D_add : forall j x y, D j (x + y) = D j x + D j y.
Hypothesis DX_add : forall j x y, DX j (x + y) = DX j x + DX j y.
Hypothesis D_sc : forall j x, D j (sc * x) = sc * D j x.
Hypothesis D_scc : forall j x, D j (kconj sc * x) = kconj sc * D j x.
Hypothesis DX_sc : forall j x, DX j (sc * x) = sc * DX j x.
Hypothesis DX_scc : forall j x, DX j (kconj sc * x) = kconj sc * DX j x.
(* conditions select pointwise *)
Hypothesis cond_lin : forall (b : B A) (s x x' y y' : A),
  kcond b (s * x + y) (s * x' + y') = s * kcond b x x' + kcond b y y'.

(* three environments that differ only in the arguments of number n, where z = sc*x + y *)
Variables envx envy envz : side -> nat -> nat -> list nat -> A.
Hypothesis off_x : forall s k id c, (k <> 1 \/ num id <> n) -> envz s k id c = envx s k id c.
Hypothesis off_y : forall s k id c, (k <> 1 \/ num id <> n) -> envz s k id c = envy s k id c.
Hypothesis on_n : forall s id c, num id = n -> envz s 1 id c = sc * envx s 1 id c + envy s 1 id c.

Notation dx := (@den A envx D DX ki).
Notation dy := (@den A envy D DX ki).
Notation dz := (@den A envz D DX ki).

Definition eff (f : bool) : A := if f then @kconj A sc else sc.
Definition fam (a : ar) : Prop := exists i f, In (i, f) a /\ num i = n.
Definition uni (a : ar) (S : A) : Prop := forall i f, In (i, f) a -> num i = n -> eff f = S.
Definition lin (e : expr) (S : A) : Prop :=
  forall s rho c, dz s rho e c = S * dx s rho e c + dy s rho e c.
(* the value does not depend on the arguments of number n *)
Definition indep (e : expr) : Prop :=
  (forall s rho c, dx s rho e c = dz s rho e c) /\ (forall s rho c, dy s rho e c = dz s rho e c).

(* an operand whose arity is conjugated by the handler ([b] = true) or not *)
Definition cj (b : bool) (a : ar) : ar := if b then a_conj a else a.
Definition cjS (b : bool) (S : A) : A := if b then kconj S else S.

Lemma fam_nil : ~ fam [].
Proof. intros [i [f [[] _]]]. Qed.

Lemma fam_cj b a : fam (cj b a) <-> fam a.
Proof.
  destruct b; [|reflexivity]. split; intros [i [f [H E]]].
  - apply In_conj in H. exists i, (negb f). auto.
  - exists i, (negb f). split; [apply In_conj; rewrite negb_involutive; exact H|exact E].
Qed.

Lemma uni_cj b a S : uni (cj b a) S -> uni a (cjS b S).
Proof.
  destruct b; [|trivial]. intros U i f H E.
  assert (H' : In (i, negb f) (a_conj a)) by (apply In_conj; rewrite negb_involutive; exact H).
  rewrite <- (U _ _ H' E). destruct f; cbn [negb eff cjS]; [|rewrite conj_inv]; reflexivity.
Qed.

Lemma uni_sub a b S : (forall p, In p a -> In p b) -> uni b S -> uni a S.
Proof. intros H U i f Hin. apply U, H, Hin. Qed.

Lemma S_cases a S : fam a -> uni a S -> S = sc \/ S = kconj sc.
Proof. intros [i [f [H E]]] U. specialize (U _ _ H E). destruct f; cbn in U; auto. Qed.

Lemma D_lin a S j x y : fam a -> uni a S -> D j (S * x + y) = S * D j x + D j y.
Proof. intros F U. rewrite D_add. destruct (S_cases _ _ F U) as [->| ->]; [rewrite D_sc|rewrite D_scc]; reflexivity. Qed.
Lemma DX_lin a S j x y : fam a -> uni a S -> DX j (S * x + y) = S * DX j x + DX j y.
Proof. intros F U. rewrite DX_add. destruct (S_cases _ _ F U) as [->| ->]; [rewrite DX_sc|rewrite DX_scc]; reflexivity. Qed.

Lemma conj_lin (S x y : A) : kconj (kconj S * x + y) = S * kconj x + kconj y.
Proof. rewrite conj_add, conj_mul, conj_inv. reflexivity. Qed.
Lemma conj_lin' (S x y : A) : kconj (S * x + y) = kconj S * kconj x + kconj y.
Proof. rewrite conj_add, conj_mul. reflexivity. Qed.

Lemma ksum_lin m S (f g h : nat -> A) :
  (forall k, f k = S * g k + h k) -> ksum m f = S * ksum m g + ksum m h.
Proof. intros H. rewrite <- ksum_scal, <- ksum_add. apply ksum_ext. intros k _. apply H. Qed.

Lemma ksum_shape_lin sh S : forall (f g h : list nat -> A),
  (forall c, f c = S * g c + h c) -> ksum_shape sh f = S * ksum_shape sh g + ksum_shape sh h.
Proof.
  induction sh as [|d sh IH]; intros f g h H; cbn [ksum_shape]; [apply H|].
  apply ksum_lin. intros k. apply IH. intros c. apply H.
Qed.

(* an accepted expression without an argument of number n has the same value in the three environments *)
Lemma indep_of_nofam e : arity num e = OK (ar_of num e) -> ~ fam (ar_of num e) -> indep e.
Proof.
  intros E NF. pose proof (arity_exact num e _ E) as X.
  assert (G : forall env', (forall s k id c, (k <> 1 \/ num id <> n) -> envz s k id c = env' s k id c) ->
              forall s rho c, @den A env' D DX ki s rho e c = dz s rho e c).
  { intros env' Hoff s rho c. symmetry. apply den_ext. intros k id Hin s' c'. apply Hoff.
    destruct (Nat.eq_dec k 1) as [->|Hk]; [|left; exact Hk]. right.
    apply X in Hin. destruct Hin as [f Hf]. intros En. apply NF. exists id, f. auto. }
  split; [apply G, off_x|apply G, off_y].
Qed.

Lemma denc_indep c : has_arg_c c = false -> forall s rho,
  denc envx D DX ki s rho c = denc envz D DX ki s rho c /\ denc envy D DX ki s rho c = denc envz D DX ki s rho c.
Proof.
  intros H. pose proof (has_arg_false _ H) as N.
  assert (G : forall env', (forall s k id c, (k <> 1 \/ num id <> n) -> envz s k id c = env' s k id c) ->
              forall s rho, denc env' D DX ki s rho c = denc envz D DX ki s rho c).
  { intros env' Hoff s rho. symmetry. apply denc_ext. intros k id Hin s' cc. apply Hoff. left.
    intros ->. exact (N id Hin). }
  intros s rho. split; [apply G, off_x|apply G, off_y].
Qed.

(* an accepted product carries family n in exactly one factor *)
Lemma prod_split fa fb a b C S :
  h_product num (cj fa a) (cj fb b) = OK C -> fam C -> uni C S ->
  (fam a /\ uni a (cjS fa S) /\ ~ fam b) \/ (~ fam a /\ fam b /\ uni b (cjS fb S)).
Proof.
  intros E F U. apply h_product_ok in E. destruct E as [Hc Hd].
  assert (Ua : uni a (cjS fa S)) by (apply uni_cj; eapply uni_sub; [|exact U]; intros p Hp; apply Hc; auto).
  assert (Ub : uni b (cjS fb S)) by (apply uni_cj; eapply uni_sub; [|exact U]; intros p Hp; apply Hc; auto).
  assert (N : fam (cj fa a) -> fam (cj fb b) -> False).
  { intros [i [f [Hi Ei]]] [j [g [Hj Ej]]]. apply (Hd _ _ Hi Hj). cbn [fst]. congruence. }
  destruct F as [i [f [Hin En]]]. apply Hc in Hin. destruct Hin as [Hin|Hin]; [left|right].
  - assert (Fa : fam (cj fa a)) by (exists i, f; auto).
    split; [exact (proj1 (fam_cj _ _) Fa)|]. split; [exact Ua|]. intros Fb. exact (N Fa (proj2 (fam_cj _ _) Fb)).
  - assert (Fb : fam (cj fb b)) by (exists i, f; auto).
    split; [intros Fa; exact (N (proj2 (fam_cj _ _) Fa) Fb)|]. split; [exact (proj1 (fam_cj _ _) Fb)|exact Ub].
Qed.

Definition P (e : expr) : Prop :=
  forall C, arity num e = OK C -> fam C -> forall S, uni C S -> lin e S.

(* what the induction hypothesis says of an accepted operand *)
Definition opnd_ok (x : expr) : Prop :=
  (fam (ar_of num x) -> forall S, uni (ar_of num x) S -> lin x S) /\ (~ fam (ar_of num x) -> indep x).

(* the value of a product of two accepted operands, one of which the handler may book as conjugated,
   in an accepted product: the factor carrying family n is (conjugate-)linear, the other independent *)
Lemma prod_val fa fb a b C S :
  opnd_ok a -> opnd_ok b -> h_product num (cj fa (ar_of num a)) (cj fb (ar_of num b)) = OK C -> fam C -> uni C S ->
  forall s rho ca cb,
    cjS fa (dz s rho a ca) * cjS fb (dz s rho b cb) =
    S * (cjS fa (dx s rho a ca) * cjS fb (dx s rho b cb)) + cjS fa (dy s rho a ca) * cjS fb (dy s rho b cb).
Proof.
  intros [La Ia] [Lb Ib] E F U s rho ca cb.
  destruct (prod_split _ _ _ _ _ _ E F U) as [[Fa [Ua Fb]]|[Fa [Fb Ub]]].
  - pose proof (La Fa _ Ua) as L. destruct (Ib Fb) as [Ix Iy]. unfold lin in L. rewrite L, Ix, Iy.
    destruct fa; cbn [cjS]; rewrite ?conj_lin; ring.
  - pose proof (Lb Fb _ Ub) as L. destruct (Ia Fa) as [Ix Iy]. unfold lin in L. rewrite L, Ix, Iy.
    destruct fb; cbn [cjS]; rewrite ?conj_lin; ring.
Qed.

Lemma lin_zero x S : is_zero x = true -> lin x S.
Proof. destruct x; try discriminate. intros _ s rho c. cbn [den]. ring. Qed.

Lemma lin_ListTensor es S : (forall x, In x es -> lin x S) -> lin (ListTensor es) S.
Proof.
  intros H s rho c. rewrite !den_ListTensor. destruct c as [|k c]; [ring|].
  destruct (nth_error es k) as [x|] eqn:E; [apply (H x (nth_error_In _ _ E))|ring].
Qed.

Theorem arity_linear : forall e, P e.
Proof.
  induction e as [e IH] using size_ind. intros C E F S U.
  destruct (arity_inv num _ _ E) as [E' Hops].
  assert (X : forall x, In x (ops e) -> opnd_ok x).
  { intros x Hx. pose proof (Hops x Hx) as Ex. split.
    - apply (IH x (ops_size _ _ Hx) _ Ex).
    - apply indep_of_nofam, Ex. }
  clear IH Hops E.
  destruct e; cbn [cls_of class_handler asubs subs map ops] in E', X.
  (* terminals and nonlinear operators have the empty arity *)
  all: try (destruct (leaf_nil num _ _ _ _ E' eq_refl) as [_ ->]; destruct (fam_nil F)).
  all: cbn [apply_handler all_ok] in E'.
  all: try pose proof (X _ (or_introl eq_refl)) as X1; try pose proof (X _ (or_intror (or_introl eq_refl))) as X2.
  (* operators that pass arity and value of their operand on *)
  all: try (injection E' as <-; intros s rho c; apply (proj1 X1 F S U)).
  - (* Term *)
    destruct k as [|[|[|k]]]; cbn [class_handler apply_handler] in E'; injection E' as <-;
      try destruct (fam_nil F).
    destruct F as [i0 [f0 [[[= <- <-]|[]] En]]]. intros s rho c. cbn [den].
    rewrite <- (U id false (or_introl eq_refl) En). apply on_n, En.
  - (* Sum *)
    apply h_sum_ok in E'. destruct E' as [E2 ->].
    pose proof (proj1 X1 F S U) as L1.
    pose proof (proj1 X2) as L2. rewrite E2 in L2. specialize (L2 F S U).
    unfold lin in L1, L2. intros s rho c. rewrite !den_Sum, L1, L2. ring.
  - (* Product *)
    intros s rho c. rewrite !den_Product. apply (prod_val false false _ _ _ _ X1 X2 E' F U).
  - (* Division *)
    apply h_division_ok in E'. destruct E' as [E2 ->].
    pose proof (proj1 X1 F S U) as L.
    destruct X2 as [_ I]. rewrite E2 in I. destruct (I fam_nil) as [Ix Iy].
    unfold lin in L. intros s rho c. rewrite !den_Division, L, Ix, Iy, !div_def. ring.
  - (* Conj *)
    injection E' as <-.
    pose proof (proj1 X1 (proj1 (fam_cj true _) F) _ (uni_cj true _ _ U)) as L.
    unfold lin in L. intros s rho c. rewrite !den_Conj, L. apply conj_lin.
  - (* IndexSum *)
    injection E' as <-. intros s rho c. rewrite !den_IndexSum. apply ksum_lin. intros k.
    apply (proj1 X1 F S U).
  - (* ListTensor *)
    apply apply_list_tensor, h_list_tensor_ok in E'. destruct E' as [Hc [Hn Hz]].
    assert (Cne : C <> []) by (intros ->; exact (fam_nil F)).
    apply lin_ListTensor. intros x Hx. destruct (ar_of num x) as [|p q] eqn:Ex.
    + (* an argument-free component is a Zero node, or the checker would have rejected *)
      apply lin_zero, (Hz Cne x Hx Ex).
    + (* a component with arguments has the argument numbers of the one carrying family n *)
      assert (Ux : uni (ar_of num x) S).
      { eapply uni_sub; [|exact U]. intros p0 Hp0. apply Hc. eauto. }
      destruct F as [i0 [f0 [Hin En]]]. apply Hc in Hin. destruct Hin as [y [Hy Hiy]].
      assert (Fy : In n (nums num (ar_of num y))) by (apply In_nums; exists (i0, f0); auto).
      rewrite <- (Hn Cne x y Hx Hy) in Fy; [|rewrite Ex; discriminate|intros E0; rewrite E0 in Hiy; destruct Hiy].
      apply In_nums in Fy. destruct Fy as [[i1 f1] [H1 E1]].
      apply (proj1 (X x Hx)); [exists i1, f1; auto|exact Ux].
  - (* Conditional *)
    destruct (has_arg_c c) eqn:Hc; [discriminate|].
    pose proof (proj1 X1) as L1. pose proof (proj1 X2) as L2.
    assert (L : lin e1 S /\ lin e2 S).
    { apply h_conditional_ok in E'. destruct E' as [[Z ->]|[[Z ->]|[E2 ->]]].
      - split; [exact (L1 F S U)|apply lin_zero, Z].
      - split; [apply lin_zero, Z|exact (L2 F S U)].
      - rewrite E2 in L2. split; [exact (L1 F S U)|exact (L2 F S U)]. }
    clear L1 L2. destruct L as [L1 L2]. unfold lin in L1, L2. intros s rho cc. rewrite !den_Conditional, L1, L2.
    destruct (denc_indep c Hc s rho) as [-> ->]. apply cond_lin.
  - (* Restricted *)
    destruct plus; cbn [cls_of class_handler apply_handler all_ok] in E', X; injection E' as <-;
      intros s rho c; apply (proj1 (X _ (or_introl eq_refl)) F S U).
  - (* Grad *)
    injection E' as <-. intros s rho c. rewrite !den_Grad, (proj1 X1 F S U _ _ _).
    apply (D_lin _ _ _ _ _ F U).
  - (* RefGrad *)
    injection E' as <-. intros s rho c. rewrite !den_RefGrad, (proj1 X1 F S U _ _ _).
    apply (DX_lin _ _ _ _ _ F U).
  - (* Outer *)
    intros s rho c. rewrite !den_Outer. apply (prod_val true false _ _ _ _ X1 X2 E' F U).
  - (* Inner *)
    intros s rho c. rewrite !den_Inner. apply ksum_shape_lin. intros I.
    apply (prod_val false true _ _ _ _ X1 X2 E' F U).
  - (* Dot: a product without conjugation *)
    intros s rho c. rewrite !den_Dot. apply ksum_lin. intros k. apply (prod_val false false _ _ _ _ X1 X2 E' F U).
Qed.
End Linear.

(* ---- the theorems about check_integrand_arity ---- *)

Section Main.
Variable A : ualg.
Open Scope K_scope.
Variable num : nat -> nat.
Variables D DX : nat -> A -> A.
Variable ki : A.

(* C14_sound: if check_integrand_arity accepts e for the declared arguments
   [args] in mode [cm], then for every argument number n among them, and any environments that differ
   only in the arguments of number n with z = sc*x + y there,
        den e [z] = s * den e [x] + den e [y],   s = conj sc for the test function (n = 0) in complex
   mode, s = sc otherwise. *)
Theorem C14_sound :
  forall (cm : bool) (n : nat) (sc : A),
  (forall x y : A, kconj (x + y) = kconj x + kconj y) ->
  (forall x y : A, kconj (x * y) = kconj x * kconj y) ->
  (forall x : A, kconj (kconj x) = x) ->
  (cm = false -> forall x : A, kconj x = x) ->
  (forall j x y, D j (x + y) = D j x + D j y) ->
  (forall j x y, DX j (x + y) = DX j x + DX j y) ->
  (forall j x, D j (sc * x) = sc * D j x) ->
  (forall j x, D j (kconj sc * x) = kconj sc * D j x) ->
  (forall j x, DX j (sc * x) = sc * DX j x) ->
  (forall j x, DX j (kconj sc * x) = kconj sc * DX j x) ->
  (forall (b : B A) (s x x' y y' : A), kcond b (s * x + y) (s * x' + y') = s * kcond b x x' + kcond b y y') ->
  forall envx envy envz : side -> nat -> nat -> list nat -> A,
  (forall s k id c, (k <> 1 \/ num id <> n) -> envz s k id c = envx s k id c) ->
  (forall s k id c, (k <> 1 \/ num id <> n) -> envz s k id c = envy s k id c) ->
  (forall s id c, num id = n -> envz s 1 id c = sc * envx s 1 id c + envy s 1 id c) ->
  forall e args,
  check num e args cm = true -> In n (map num args) ->
  forall s rho c,
    den envz D DX ki s rho e c =
    (if cm && Nat.eqb n 0 then kconj sc else sc) * den envx D DX ki s rho e c + den envy D DX ki s rho e c.
Proof.
  intros cm n sc H1 H2 H3 H4 H5 H6 H7 H8 H9 H10 H11 envx envy envz Ox Oy On e args Hc Hn.
  unfold check in Hc. destruct (arity num e) as [a|] eqn:Ea; [|discriminate].
  apply andb_prop in Hc. destruct Hc as [Hargs Hcj]. apply nat_list_eqb_eq in Hargs. subst args.
  assert (F : fam num n a).
  { rewrite map_map in Hn. apply in_map_iff in Hn. destruct Hn as [[i f] [E Hin]]. exists i, f. auto. }
  apply (arity_linear A num D DX ki n sc H1 H2 H3 H5 H6 H7 H8 H9 H10 H11 envx envy envz Ox Oy On e a Ea F).
  intros i f Hin En. unfold eff. destruct cm; cbn [andb].
  - rewrite forallb_forall in Hcj. specialize (Hcj _ Hin). unfold conj_ok in Hcj. cbn [fst snd] in Hcj.
    rewrite En in Hcj. destruct (Nat.eqb n 0); [rewrite Hcj|apply negb_true_iff in Hcj; rewrite Hcj]; reflexivity.
  - destruct f; [apply H4|]; reflexivity.
Qed.

(* ... and the integrand contains exactly the declared arguments; it does not depend on any other *)
Theorem C14_args_exact :
  forall e args cm, check num e args cm = true ->
  (forall i, In i args <-> In (1, i) (terms e)) /\
  (forall env env' : side -> nat -> nat -> list nat -> A,
     (forall s k id c, (k <> 1 \/ In id args) -> env s k id c = env' s k id c) ->
     forall s rho c, den env D DX ki s rho e c = den env' D DX ki s rho e c).
Proof.
  intros e args cm Hc. unfold check in Hc. destruct (arity num e) as [a|] eqn:Ea; [|discriminate].
  apply andb_prop in Hc. destruct Hc as [Hargs _]. apply nat_list_eqb_eq in Hargs. subst args.
  pose proof (arity_exact num e a Ea) as X.
  assert (Y : forall i, In i (map fst a) <-> In (1, i) (terms e)).
  { intros i. rewrite <- (X i), in_map_iff. split.
    - intros [[j f] [E Hin]]. cbn [fst] in E. subst j. eauto.
    - intros [f Hin]. exists (i, f). auto. }
  split; [exact Y|].
  intros env env' Hag. apply den_ext. intros k id Hin s c. apply Hag.
  destruct (Nat.eq_dec k 1) as [->|Hk]; [right; apply Y; exact Hin|left; exact Hk].
Qed.

End Main.

(* ---- C14_rejects: the affine and nonlinear shapes named in the property are rejected ---- *)

Section Rejects.
Variable num : nat -> nat.

Lemma check_Err e args cm : arity num e = Err -> check num e args cm = false.
Proof. unfold check. intros ->. reflexivity. Qed.

(* the node equation at a binary operator with accepted operands *)
Lemma arity_bin e a b Aa Ab :
  asubs e = [a; b] -> arity num a = OK Aa -> arity num b = OK Ab ->
  arity num e = apply_handler num (class_handler (cls_of e)) e [OK Aa; OK Ab].
Proof. intros Es Ea Eb. rewrite arity_eq, Es. cbn [map]. rewrite Ea, Eb. reflexivity. Qed.

Lemma overlap_self a : a <> [] -> overlap num a a = true.
Proof.
  destruct a as [|x t]; [congruence|]. intros _. unfold overlap. cbn [existsb].
  rewrite Nat.eqb_refl. reflexivity.
Qed.

(* a + c : a depends on arguments, c does not *)
Theorem C14_rejects_affine a c Aa args cm :
  arity num a = OK Aa -> Aa <> [] -> arity num c = OK [] -> check num (Sum a c) args cm = false.
Proof.
  intros Ea Hne Ec. apply check_Err. rewrite (arity_bin (Sum a c) _ _ _ _ eq_refl Ea Ec).
  destruct Aa; [congruence|reflexivity].
Qed.
Theorem C14_rejects_affine' a c Aa args cm :
  arity num a = OK Aa -> Aa <> [] -> arity num c = OK [] -> check num (Sum c a) args cm = false.
Proof.
  intros Ea Hne Ec. apply check_Err. rewrite (arity_bin (Sum c a) _ _ _ _ eq_refl Ec Ea).
  destruct Aa; [congruence|reflexivity].
Qed.
(* a * a *)
Theorem C14_rejects_square a Aa args cm :
  arity num a = OK Aa -> Aa <> [] -> check num (Product a a) args cm = false.
Proof.
  intros Ea Hne. apply check_Err. rewrite (arity_bin (Product a a) _ _ _ _ eq_refl Ea Ea).
  cbn [cls_of class_handler apply_handler all_ok]. unfold h_product. rewrite (overlap_self _ Hne).
  destruct Aa; [congruence|reflexivity].
Qed.
(* f(a) for every math function, and |a|, a^b, real, imag *)
Theorem C14_rejects_nonlinear a args cm (f : mathfn) :
  has_arg a = true ->
  check num (Math f a) args cm = false /\ check num (Abs a) args cm = false /\
  check num (Real a) args cm = false /\ check num (Imag a) args cm = false /\
  (forall b, check num (Power a b) args cm = false).
Proof.
  intros H. unfold check. rewrite !arity_eq. cbn [cls_of class_handler apply_handler].
  unfold has_arg in *. cbn [terms]. rewrite H. repeat split. intros b. rewrite arity_eq.
  cbn [cls_of class_handler apply_handler]. unfold has_arg. cbn [terms]. rewrite existsb_app, H. reflexivity.
Qed.
(* c / a *)
Theorem C14_rejects_denominator c a Aa args cm :
  arity num a = OK Aa -> Aa <> [] -> check num (Division c a) args cm = false.
Proof.
  intros Ea Hne. apply check_Err. destruct (arity num c) as [Ac|] eqn:Ec.
  - rewrite (arity_bin (Division c a) _ _ _ _ eq_refl Ec Ea). destruct Aa; [congruence|reflexivity].
  - rewrite arity_eq. cbn [cls_of class_handler asubs subs map apply_handler]. rewrite Ec. reflexivity.
Qed.

End Rejects.

(* ---- two expressions that are not (conjugate-)linear, and are rejected ---- *)

Definition num100 (i : nat) : nat := Nat.div i 100.

Section Refute.
Variable A : ualg.
Add Field AfC14r : (kfield A).
Open Scope K_scope.
Variables D DX : nat -> A -> A.
Variable ki : A.

(* inner(as_vector([v, 1]), f) after algebra lowering:  sum_i [v, 1][i] * f[i]  -- affine in v (in EVERY UFL
   algebra), hence rejected. *)
Definition lt_witness : expr :=
  IndexSum (Product (Indexed (ListTensor [Term 1 0 []; IntV 1]) [Free 0])
                    (Indexed (Term 0 0 [2]) [Free 0])) 0 2.

Theorem C14_list_tensor_constant_rejected :
  check num100 lt_witness [0] false = false /\
  exists envx envy envz : side -> nat -> nat -> list nat -> A,
    (forall s k id c, (k <> 1 \/ num100 id <> 0) -> envz s k id c = envx s k id c) /\
    (forall s k id c, (k <> 1 \/ num100 id <> 0) -> envz s k id c = envy s k id c) /\
    (forall s id c, num100 id = 0 -> envz s 1 id c = k1 * envx s 1 id c + envy s 1 id c) /\
    den envz D DX ki None (fun _ => 0) lt_witness []
    <> k1 * den envx D DX ki None (fun _ => 0) lt_witness [] + den envy D DX ki None (fun _ => 0) lt_witness [].
Proof.
  split; [vm_compute; reflexivity|].
  pose (env := fun (s : side) (k id : nat) (c : list nat) => if Nat.eqb k 1 then (k0 : A) else k1).
  exists env, env, env. split; [reflexivity|]. split; [reflexivity|]. split.
  - intros s id c _. unfold env. cbn. ring.
  - assert (E : den env D DX ki None (fun _ => 0) lt_witness [] = (k1 : A)).
    { cbv -[K k0 k1 kadd kmul ksub kopp kdiv kinv]. ring. }
    rewrite E. intros H. apply (F_1_neq_0 (kfield A)).
    apply (self_double A). rewrite H at 1. ring.
Qed.

(* dot(u, v) in complex mode: linear, not antilinear, in v (in every UFL algebra with a
   scalar a such that conj a <> a), hence rejected; dot(u, conj(v)) is accepted. *)
Definition dot_witness : expr := Dot (Term 1 100 [2]) (Term 1 0 [2]).

Lemma den_dot_witness env :
  den env D DX ki None (fun _ => 0) dot_witness [] =
  env None 1 100 [0] * env None 1 0 [0] + env None 1 100 [1] * env None 1 0 [1].
Proof. cbv -[K k0 k1 kadd kmul ksub kopp kdiv kinv]. ring. Qed.

Theorem C14_dot_not_conjugating (a : A) :
  kconj a <> a ->
  check num100 dot_witness [0; 100] true = false /\
  check num100 (Dot (Term 1 100 [2]) (Conj (Term 1 0 [2]))) [0; 100] true = true /\
  exists envx envy envz : side -> nat -> nat -> list nat -> A,
    (forall s k id c, (k <> 1 \/ num100 id <> 0) -> envz s k id c = envx s k id c) /\
    (forall s k id c, (k <> 1 \/ num100 id <> 0) -> envz s k id c = envy s k id c) /\
    (forall s id c, num100 id = 0 -> envz s 1 id c = a * envx s 1 id c + envy s 1 id c) /\
    den envz D DX ki None (fun _ => 0) dot_witness []
    <> kconj a * den envx D DX ki None (fun _ => 0) dot_witness [] + den envy D DX ki None (fun _ => 0) dot_witness [].
Proof.
  intros Ha. split; [vm_compute; reflexivity|]. split; [vm_compute; reflexivity|].
  (* every terminal has the value (1, 0), except the test function: x = (1, 0), y = 0, z = a*x + y *)
  pose (u := fun c : list nat => match c with [0] => (k1 : A) | _ => k0 end).
  pose (isv := fun k id : nat => Nat.eqb k 1 && Nat.eqb (num100 id) 0).
  pose (envx := fun (s : side) (k id : nat) (c : list nat) => u c).
  pose (envy := fun (s : side) (k id : nat) (c : list nat) => if isv k id then (k0 : A) else u c).
  pose (envz := fun (s : side) (k id : nat) (c : list nat) => if isv k id then a * u c + k0 else u c).
  exists envx, envy, envz.
  assert (N : forall k id, (k <> 1 \/ num100 id <> 0) -> isv k id = false).
  { intros k id [H|H]; unfold isv; apply Nat.eqb_neq in H; rewrite H; [reflexivity|apply andb_false_r]. }
  split; [|split; [|split]].
  - intros s k id c H. unfold envz, envx. rewrite (N _ _ H). reflexivity.
  - intros s k id c H. unfold envz, envy. rewrite (N _ _ H). reflexivity.
  - intros s id c H. unfold envz, envx, envy, isv. rewrite H. cbn. reflexivity.
  - rewrite !den_dot_witness. cbv [envx envy envz isv u num100]. cbn.
    intros H. apply Ha. ring_simplify in H. symmetry. exact H.
Qed.

End Refute.

Print Assumptions arity_exact.
Print Assumptions arity_linear.
Print Assumptions C14_sound.
Print Assumptions C14_args_exact.
Print Assumptions C14_rejects_affine.
Print Assumptions C14_rejects_square.
Print Assumptions C14_rejects_nonlinear.
Print Assumptions C14_rejects_denominator.
Print Assumptions C14_list_tensor_constant_rejected.
Print Assumptions C14_dot_not_conjugating.
