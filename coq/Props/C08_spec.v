(* C08 - Function pullbacks implement each element's declared push-forward.

   Hand-written part.

   SPECIFICATION (definitions, not proved - they are what "declared push-forward" means):
     [pf_leaf]  the six Piola formulas + identity on component functions, rank generic
                (leading "row" indices pass through);
     [pf]       push-forward of an element tree: a mixed element is the concatenation of the
                sub-elements' push-forwards at the physical offsets, a symmetric element maps
                component (block, inner) to the push-forward of sub-element symmetry(block).
   MODEL of the code (value level, list based, mirrors ufl/pullback.py line by line):
     [apply_m]  MixedPullback.apply / SymmetricPullback.apply: rflat, offsets, slices, reshape of
                the slice to the sub-element's reference shape, recursive apply, flatten
                (np.ndindex order), concatenate, reshape to physical_value_shape.
   PROVED (for ALL element trees, reference values, J, K, detJ, over every UFL algebra):
     [C08_mixed_symmetric]  apply_m e r c = pf e r c  for every in-range component c
     [C08_double_contra_is_contra_twice], [C08_double_cov_is_cov_twice],
     [C08_covcontra_is_cov_then_contra]   the rank-2 formulas are the rank-1 maps applied to
                                          rows and columns
     [C08_cov_pullback_inverse], [C08_contra_pullback_inverse]  with K J = I (and detJ <> 0) the
                push-forward inverts the pull-back  r = J^T f  /  r = detJ K f
   The tie to /repo is per run (py/props/C08.py): the real apply_function_pullbacks output is
   proved equal to [pf] component by component for every enumerated configuration. *)
Require Import UFLV.Core.Facts.
Require Import Lia.

Inductive pb := PId | PContra | PCov | PL2 | PDContra | PDCov | PCovContra.

Inductive elem :=
 | Leaf (p : pb) (rsh : list nat)                       (* pullback kind, reference value shape *)
 | Mixed (subs : list elem)
 | Symm (bs : list nat) (sym : list nat) (subs : list elem).
   (* block shape; symmetry map listed in np.ndindex(block shape) order; sub-elements *)

Fixpoint sprod (sh : list nat) : nat := match sh with [] => 1 | d :: t => d * sprod t end.

Fixpoint flat (sh c : list nat) : nat :=
  match sh, c with
  | _ :: sh', k :: c' => k * sprod sh' + flat sh' c'
  | _, _ => 0
  end.
Fixpoint unflat (sh : list nat) (n : nat) : list nat :=
  match sh with
  | [] => []
  | _ :: sh' => (n / sprod sh') :: unflat sh' (n mod sprod sh')
  end.
Fixpoint inrange (sh c : list nat) : bool :=
  match sh, c with
  | [], [] => true
  | d :: sh', k :: c' => (k <? d) && inrange sh' c'
  | _, _ => false
  end.
(* np.ndindex(sh): all multi-indices in row-major order *)
Definition ndindex (sh : list nat) : list (list nat) := map (unflat sh) (seq 0 (sprod sh)).

Lemma nth_map_seq {Y} (g : nat -> Y) N n d : n < N -> nth n (map g (seq 0 N)) d = g n.
Proof.
  intros H. rewrite (nth_indep _ d (g 0)) by (rewrite map_length, seq_length; exact H).
  rewrite map_nth, seq_nth by exact H. reflexivity.
Qed.

Lemma ndindex_length sh : length (ndindex sh) = sprod sh.
Proof. unfold ndindex. rewrite map_length, seq_length. reflexivity. Qed.

Lemma ndindex_nth sh n d : n < sprod sh -> nth n (ndindex sh) d = unflat sh n.
Proof. apply nth_map_seq. Qed.

Lemma flat_lt sh : forall c, inrange sh c = true -> flat sh c < sprod sh.
Proof.
  induction sh as [|d sh IH]; intros [|k c] H; cbn in *; try discriminate; [lia|].
  apply andb_prop in H as [H1 H2]. apply Nat.ltb_lt in H1. specialize (IH _ H2). nia.
Qed.

Lemma unflat_flat sh : forall c, inrange sh c = true -> unflat sh (flat sh c) = c.
Proof.
  induction sh as [|d sh IH]; intros [|k c] H; cbn in *; try discriminate; [reflexivity|].
  apply andb_prop in H as [_ H2]. pose proof (flat_lt _ _ H2) as L.
  assert (P : sprod sh <> 0) by lia.
  rewrite Nat.div_add_l, Nat.div_small, Nat.add_0_r by assumption.
  rewrite Nat.add_comm, Nat.mod_add, Nat.mod_small, IH by assumption. reflexivity.
Qed.

Lemma unflat_inrange sh : forall n, n < sprod sh -> inrange sh (unflat sh n) = true.
Proof.
  induction sh as [|d sh IH]; intros n H; cbn in *; [reflexivity|].
  assert (P : sprod sh <> 0) by (intros E; rewrite E, Nat.mul_0_r in H; lia).
  apply andb_true_intro; split.
  - apply Nat.ltb_lt, Nat.div_lt_upper_bound; [exact P | lia].
  - apply IH, Nat.mod_upper_bound, P.
Qed.

Lemma flat_unflat sh : forall n, n < sprod sh -> flat sh (unflat sh n) = n.
Proof.
  induction sh as [|d sh IH]; intros n H; cbn in *; [lia|].
  assert (P : sprod sh <> 0) by (intros E; rewrite E, Nat.mul_0_r in H; lia).
  rewrite IH by (apply Nat.mod_upper_bound; exact P).
  pose proof (Nat.div_mod n (sprod sh) P). lia.
Qed.

Lemma prod_app a b : sprod (a ++ b) = sprod a * sprod b.
Proof. induction a as [|x a IH]; cbn; [lia|]. rewrite IH. lia. Qed.

Lemma inrange_app a : forall b c, inrange (a ++ b) c = true ->
  inrange a (firstn (length a) c) = true /\ inrange b (skipn (length a) c) = true.
Proof.
  induction a as [|x a IH]; intros b c H; cbn in *.
  - split; [reflexivity | exact H].
  - destruct c as [|k c]; [discriminate|]. apply andb_prop in H as [H1 H2].
    destruct (IH _ _ H2) as [I1 I2]. cbn. rewrite H1, I1. split; [reflexivity | exact I2].
Qed.

Lemma flat_app a : forall b c, inrange (a ++ b) c = true ->
  flat (a ++ b) c = flat a (firstn (length a) c) * sprod b + flat b (skipn (length a) c).
Proof.
  induction a as [|x a IH]; intros b c H; cbn in *; [lia|].
  destruct c as [|k c]; [discriminate|]. apply andb_prop in H as [_ H2].
  cbn. rewrite (IH _ _ H2), prod_app. lia.
Qed.

Lemma nth_skipn {X} (l : list X) off n d : nth n (skipn off l) d = nth (off + n) l d.
Proof.
  revert l; induction off as [|off IH]; intros l; cbn; [reflexivity|].
  destruct l; [destruct n; reflexivity|]. apply IH.
Qed.

Lemma nth_firstn {X} (l : list X) m n d : n < m -> nth n (firstn m l) d = nth n l d.
Proof.
  revert l n; induction m as [|m IH]; intros l n H; [lia|].
  destruct l as [|x l]; cbn; [destruct n; reflexivity|].
  destruct n; [reflexivity|]. apply IH. lia.
Qed.

Lemma nth_app_pick {Y} (b t : list Y) d m n :
  length b = m -> nth n (b ++ t) d = if n <? m then nth n b d else nth (n - m) t d.
Proof.
  intros <-. destruct (Nat.ltb_spec n (length b)); [apply app_nth1 | apply app_nth2]; assumption.
Qed.

Lemma nth_flat_map_uniform {X Y} (F : X -> list Y) L (l : list X) :
  (forall x, In x l -> length (F x) = L) ->
  forall q m dx dy, q < length l -> m < L ->
  nth (q * L + m) (flat_map F l) dy = nth m (F (nth q l dx)) dy.
Proof.
  induction l as [|x l IH]; intros HL q m dx dy Hq Hm; cbn in *; [lia|].
  rewrite (nth_app_pick _ _ _ L) by auto. destruct q as [|q]; cbn [nth Nat.mul Nat.add].
  - apply Nat.ltb_lt in Hm. rewrite Hm. reflexivity.
  - replace (L + q * L + m <? L) with false by (symmetry; apply Nat.ltb_ge; lia).
    replace (L + q * L + m - L) with (q * L + m) by lia. apply IH; auto. lia.
Qed.

Section C08.
Variable A : ualg.
Add Field AfC08 : (kfield A).

Variables gdim tdim : nat.
Variable J : list nat -> A.       (* J [i; j], i < gdim, j < tdim *)
Variable Kinv : list nat -> A.    (* K [j; i] *)
Variable detJ : A.

Definition vec := list nat -> A.

(* SPECIFICATION: leaf push-forwards, rank generic: the last one (two) indices are mapped, the
   leading indices k pass through *)

Definition split2 (c : list nat) : list nat * nat * nat :=
  let (c1, j) := split_last c in let (c0, i) := split_last c1 in (c0, i, j).

Definition pf_leaf (p : pb) (r : vec) (c : list nat) : A :=
  match p with
  | PId => r c
  | PL2 => (r c / detJ)%K
  | PContra =>                       (* (1/detJ) J r *)
      let (k, i) := split_last c in
      ksum tdim (fun j => ((k1 / detJ) * J [i; j] * r (k ++ [j]))%K)
  | PCov =>                          (* K^T r *)
      let (k, i) := split_last c in
      ksum tdim (fun j => (Kinv [j; i] * r (k ++ [j]))%K)
  | PDContra =>                      (* (1/detJ^2) J r J^T *)
      let '(k, i, j) := split2 c in
      ksum tdim (fun m => ksum tdim (fun n =>
        ((k1 / detJ) * (k1 / detJ) * J [i; m] * r (k ++ [m; n]) * J [j; n])%K))
  | PDCov =>                         (* K^T r K *)
      let '(k, i, j) := split2 c in
      ksum tdim (fun m => ksum tdim (fun n => (Kinv [m; i] * r (k ++ [m; n]) * Kinv [n; j])%K))
  | PCovContra =>                    (* (1/detJ) K^T r J^T *)
      let '(k, i, j) := split2 c in
      ksum tdim (fun m => ksum tdim (fun n =>
        ((k1 / detJ) * Kinv [m; i] * r (k ++ [m; n]) * J [j; n])%K))
  end.

Definition pshape_leaf (p : pb) (rsh : list nat) : list nat :=
  match p with
  | PId | PL2 => rsh
  | PContra | PCov => removelast rsh ++ [gdim]
  | PDContra | PDCov | PCovContra => removelast (removelast rsh) ++ [gdim; gdim]
  end.

(* reference value size / shape, physical value shape (physical_value_shape of pullback.py) *)
Fixpoint rsize (e : elem) : nat :=
  match e with
  | Leaf _ rsh => sprod rsh
  | Mixed subs | Symm _ _ subs =>
      (fix go (l : list elem) : nat := match l with [] => 0 | x :: t => rsize x + go t end) subs
  end.
Definition rshape (e : elem) : list nat :=
  match e with Leaf _ rsh => rsh | _ => [rsize e] end.
Fixpoint pshape (e : elem) : list nat :=
  match e with
  | Leaf p rsh => pshape_leaf p rsh
  | Mixed subs =>
      [(fix go (l : list elem) : nat :=
          match l with [] => 0 | x :: t => sprod (pshape x) + go t end) subs]
  | Symm bs _ subs => bs ++ match subs with [] => [] | x :: _ => pshape x end
  end.
Definition psize (e : elem) : nat := sprod (pshape e).

Lemma prod_rshape e : sprod (rshape e) = rsize e.
Proof. destruct e; cbn [rshape]; try reflexivity; cbn [sprod]; lia. Qed.

(* sub-vector of r at reference offset roff, seen with the sub-element's reference shape
   (zero outside that shape) *)
Definition subvec (r : vec) (roff : nat) (sh : list nat) : vec :=
  fun c' => if inrange sh c' then r [roff + flat sh c'] else k0.

Fixpoint pf (e : elem) (r : vec) {struct e} : vec :=
  match e with
  | Leaf p _ => pf_leaf p r
  | Mixed subs => fun c =>
      match c with
      | [n] =>
          (fix pick (l : list elem) (roff n : nat) {struct l} : A :=
             match l with
             | [] => k0
             | x :: t =>
                 if n <? psize x
                 then pf x (subvec r roff (rshape x)) (unflat (pshape x) n)
                 else pick t (roff + rsize x) (n - psize x)
             end) subs 0 n
      | _ => k0
      end
  | Symm bs sym subs => fun c =>
      let cb := firstn (length bs) c in
      let cs := skipn (length bs) c in
      (fix sel (l : list elem) (i roff : nat) {struct l} : A :=
         match l, i with
         | [], _ => k0
         | x :: _, O => pf x (subvec r roff (rshape x)) cs
         | x :: t, S i' => sel t i' (roff + rsize x)
         end) subs (nth (flat bs cb) sym 0) 0
  end.

(* MODEL of MixedPullback.apply / SymmetricPullback.apply on values *)

Definition flatten (sh : list nat) (f : vec) : list A := map f (ndindex sh).
Definition slice (off n : nat) (l : list A) : list A := firstn n (skipn off l).
Definition reshape (sh : list nat) (l : list A) : vec :=
  fun c => if inrange sh c then nth (flat sh c) l k0 else k0.

Fixpoint apply_m (e : elem) (r : vec) {struct e} : vec :=
  match e with
  | Leaf p _ => pf_leaf p r
  | Mixed subs =>
      let rflat := flatten (rshape e) r in
      let g :=
        (fix go (l : list elem) (off : nat) {struct l} : list A :=
           match l with
           | [] => []
           | x :: t =>
               flatten (pshape x)
                       (apply_m x (reshape (rshape x) (slice off (rsize x) rflat)))
               ++ go t (off + rsize x)
           end) subs 0 in
      reshape (pshape e) g
  | Symm bs sym subs =>
      let rflat := flatten (rshape e) r in
      let block :=
        (fix sel (l : list elem) (i off : nat) {struct l} : list A :=
           match l, i with
           | [], _ => []
           | x :: _, O =>
               flatten (pshape x)
                       (apply_m x (reshape (rshape x) (slice off (rsize x) rflat)))
           | x :: t, S i' => sel t i' (off + rsize x)
           end) in
      let g := flat_map (fun q => block subs (nth q sym 0) 0) (seq 0 (sprod bs)) in
      reshape (pshape e) g
  end.

(* well-formed symmetric elements: the symmetry map points at existing sub-elements and all
   sub-elements have the physical shape of the first one (pullback.py computes the physical shape
   from sub_elements[0] only and does not check this) *)
Fixpoint wf (e : elem) : Prop :=
  match e with
  | Leaf _ _ => True
  | Mixed subs => (fix all (l : list elem) : Prop := match l with [] => True | x :: t => wf x /\ all t end) subs
  | Symm bs sym subs =>
      (fix all (l : list elem) : Prop := match l with [] => True | x :: t => wf x /\ all t end) subs
      /\ (forall q, nth q sym 0 < length subs)
      /\ (forall x, In x subs -> pshape x = match subs with [] => [] | y :: _ => pshape y end)
  end.

(* [wf_all], [sum_rsize]: the anonymous [fix] inside [wf] and [rsize], under a name.  Each must stay
   convertible with the one it copies: the proofs pass from [wf (Mixed l)] to [wf_all l] by conversion. *)
Definition wf_all := fix all (l : list elem) : Prop := match l with [] => True | x :: t => wf x /\ all t end.

Definition sum_rsize := fix go (l : list elem) : nat := match l with [] => 0 | x :: t => rsize x + go t end.

Lemma wf_all_In l x : wf_all l -> In x l -> wf x.
Proof.
  induction l as [|y t IH]; intros W Hx; [destruct Hx|].
  destruct W as [Wy Wt], Hx as [<-|Hx]; [exact Wy | exact (IH Wt Hx)].
Qed.

Lemma pf_leaf_ext p r1 r2 c : (forall c', r1 c' = r2 c') -> pf_leaf p r1 c = pf_leaf p r2 c.
Proof.
  intros E. destruct p; cbn [pf_leaf]; unfold split2;
    repeat destruct (split_last _);
    rewrite ?E; try reflexivity;
    repeat (apply ksum_ext; intros ? _); rewrite E; reflexivity.
Qed.

Lemma flatten_length sh f : length (flatten sh f) = sprod sh.
Proof. unfold flatten. rewrite map_length. apply ndindex_length. Qed.

Lemma flatten_nth sh f n : n < sprod sh -> nth n (flatten sh f) k0 = f (unflat sh n).
Proof. unfold flatten, ndindex. rewrite map_map. apply (nth_map_seq (fun m => f (unflat sh m))). Qed.

Lemma reshape_in sh l c : inrange sh c = true -> reshape sh l c = nth (flat sh c) l k0.
Proof. unfold reshape. intros ->. reflexivity. Qed.

Lemma reshape_1 N c : inrange [N] c = true ->
  exists n, c = [n] /\ forall g, reshape [N] g c = nth n g k0.
Proof.
  destruct c as [|n [|]]; cbn [inrange]; try discriminate; [|rewrite andb_false_r; discriminate].
  intros R. exists n. split; [reflexivity|]. intros g. unfold reshape. cbn [inrange flat sprod].
  rewrite R, Nat.mul_1_r, Nat.add_0_r. reflexivity.
Qed.

(* rflat[off + m] of the sub-element's slice is r[off + m]: the slice of rflat reshaped to the
   sub-element's reference shape is the sub-vector *)
Lemma reshape_slice N (r1 r2 : vec) off x :
  (forall c, r1 c = r2 c) -> off + rsize x <= N ->
  forall c', reshape (rshape x) (slice off (rsize x) (flatten [N] r1)) c'
             = subvec r2 off (rshape x) c'.
Proof.
  intros E Hoff c'. unfold reshape, subvec. destruct (inrange (rshape x) c') eqn:R; [|reflexivity].
  pose proof (flat_lt _ _ R) as L. rewrite prod_rshape in L.
  unfold slice. rewrite nth_firstn, nth_skipn, flatten_nth by (cbn; lia).
  cbn [unflat sprod]. rewrite Nat.div_1_r. apply E.
Qed.

Definition IHP (x : elem) : Prop :=
  forall r1 r2 c, (forall c', r1 c' = r2 c') -> inrange (pshape x) c = true ->
                  apply_m x r1 c = pf x r2 c.

(* the piece of g_components that a sub-element at reference offset [off] contributes *)
Definition blk N (r : vec) (off : nat) (x : elem) : list A :=
  flatten (pshape x) (apply_m x (reshape (rshape x) (slice off (rsize x) (flatten [N] r)))).

Lemma blk_ok N (r1 r2 : vec) x off : (forall c, r1 c = r2 c) -> IHP x -> off + rsize x <= N ->
  length (blk N r1 off x) = psize x /\
  forall n, n < psize x ->
    nth n (blk N r1 off x) k0 = pf x (subvec r2 off (rshape x)) (unflat (pshape x) n).
Proof.
  intros E Hx Hoff. unfold blk. split; [apply flatten_length|]. intros n Hn.
  rewrite flatten_nth by exact Hn.
  apply Hx; [apply reshape_slice; assumption | apply unflat_inrange, Hn].
Qed.

(* the loops of [apply_m] and the selections of [pf], named: copies of the anonymous [fix]es inside [apply_m]
   and [pf] that must stay convertible with them (C08_mixed_symmetric closes its cases with [exact] of a
   lemma about the named ones) *)
Definition go_m N r := fix go (l : list elem) (off : nat) {struct l} : list A :=
  match l with
  | [] => []
  | x :: t => blk N r off x ++ go t (off + rsize x)
  end.
Definition pick_pf r := fix pick (l : list elem) (roff n : nat) {struct l} : A :=
  match l with
  | [] => k0
  | x :: t =>
      if n <? psize x
      then pf x (subvec r roff (rshape x)) (unflat (pshape x) n)
      else pick t (roff + rsize x) (n - psize x)
  end.
Definition sel_m N r := fix sel (l : list elem) (i off : nat) {struct l} : list A :=
  match l, i with
  | [], _ => []
  | x :: _, O => blk N r off x
  | x :: t, S i' => sel t i' (off + rsize x)
  end.
Definition sel_pf r cs := fix sel (l : list elem) (i roff : nat) {struct l} : A :=
  match l, i with
  | [], _ => k0
  | x :: _, O => pf x (subvec r roff (rshape x)) cs
  | x :: t, S i' => sel t i' (roff + rsize x)
  end.

Lemma mixed_go N (r1 r2 : vec) (E : forall c, r1 c = r2 c) l : (forall x, In x l -> IHP x) ->
  forall off n, off + sum_rsize l <= N -> nth n (go_m N r1 l off) k0 = pick_pf r2 l off n.
Proof.
  induction l as [|x t IHl]; intros HI off n Hoff; cbn [go_m pick_pf sum_rsize] in *;
    [destruct n; reflexivity|].
  destruct (blk_ok N r1 r2 x off E (HI x (or_introl eq_refl))) as [L B]; [lia|].
  rewrite (nth_app_pick _ _ _ _ _ L). destruct (n <? psize x) eqn:C.
  - apply B, Nat.ltb_lt, C.
  - apply IHl; [intros y Hy; apply HI; right; exact Hy | lia].
Qed.

Lemma symm_block N (r1 r2 : vec) (E : forall c, r1 c = r2 c) pvs cs : inrange pvs cs = true ->
  forall l, (forall x, In x l -> IHP x) -> (forall x, In x l -> pshape x = pvs) ->
  forall i off, i < length l -> off + sum_rsize l <= N ->
  length (sel_m N r1 l i off) = sprod pvs /\
  nth (flat pvs cs) (sel_m N r1 l i off) k0 = sel_pf r2 cs l i off.
Proof.
  intros Rcs. induction l as [|x t IHl]; intros HI Hsh i off Hi Hoff; cbn [length sum_rsize] in *; [lia|].
  destruct i as [|i]; cbn [sel_m sel_pf].
  - destruct (blk_ok N r1 r2 x off E (HI x (or_introl eq_refl))) as [L B]; [lia|].
    unfold psize in *. rewrite (Hsh x (or_introl eq_refl)) in *. split; [exact L|].
    rewrite B, unflat_flat by (exact Rcs || apply flat_lt, Rcs). reflexivity.
  - apply IHl; [intros y Hy; apply HI | intros y Hy; apply Hsh | lia | lia]; right; exact Hy.
Qed.

(* induction principle for element trees *)
Lemma elem_rect' (P : elem -> Prop) :
  (forall p rsh, P (Leaf p rsh)) ->
  (forall subs, (forall x, In x subs -> P x) -> P (Mixed subs)) ->
  (forall bs sym subs, (forall x, In x subs -> P x) -> P (Symm bs sym subs)) ->
  forall e, P e.
Proof.
  intros HL HM HS. fix F 1.
  intros [p rsh|subs|bs sym subs]; [apply HL | apply HM | apply HS];
    (induction subs as [|x t IH]; intros y Hy;
     [destruct Hy | destruct Hy as [<-|Hy]; [apply F | exact (IH y Hy)]]).
Qed.

(* For every element tree (any nesting depth), every reference value r, every J, K,
   detJ and every in-range physical component c, the modelled MixedPullback/SymmetricPullback
   algorithm returns the declared push-forward: the concatenation of the sub-elements'
   push-forwards at the physical offsets (mixed) / the push-forward of sub-element
   symmetry(block) (symmetric). *)
Theorem C08_mixed_symmetric : forall e, wf e -> forall r1 r2 c,
  (forall c', r1 c' = r2 c') -> inrange (pshape e) c = true -> apply_m e r1 c = pf e r2 c.
Proof.
  induction e as [p rsh|subs IH|bs sym subs IH] using elem_rect'; intros W r1 r2 c E R.
  - apply pf_leaf_ext, E.
  - cbn [pshape] in R. destruct (reshape_1 _ _ R) as (n & -> & Eg). cbn [apply_m pf pshape]. rewrite Eg.
    exact (mixed_go (rsize (Mixed subs)) r1 r2 E subs (fun x Hx => IH x Hx (wf_all_In _ _ W Hx))
             0 n (Nat.le_refl _)).
  - destruct W as (Wall & Wsym & Wsh).
    cbn [pshape] in R. set (pvs := match subs with [] => [] | x :: _ => pshape x end) in *.
    destruct (inrange_app _ _ _ R) as [Rb Rs].
    pose proof (fun q => symm_block (rsize (Symm bs sym subs)) r1 r2 E pvs _ Rs subs
                           (fun x Hx => IH x Hx (wf_all_In _ _ Wall Hx)) Wsh
                           (nth q sym 0) 0 (Wsym q) (Nat.le_refl _)) as HB.
    cbn [apply_m pf]. rewrite reshape_in by exact R. cbn [pshape]. fold pvs.
    rewrite (flat_app _ _ _ R).
    rewrite (nth_flat_map_uniform _ (sprod pvs) (seq 0 (sprod bs)) (fun q _ => proj1 (HB q)) _ _ 0 k0)
      by (rewrite ?seq_length; apply flat_lt; assumption).
    rewrite seq_nth by (apply flat_lt, Rb). exact (proj2 (HB _)).
Qed.

(* the model produces the declared physical shape: outside of it the value is the default *)
Theorem C08_model_shape e r c : (exists s l, e = Mixed l \/ e = Symm (fst s) (snd s) l) ->
  inrange (pshape e) c = false -> apply_m e r c = k0.
Proof.
  intros [s [l [H|H]]] R; subst e; cbn [apply_m]; unfold reshape; rewrite R; reflexivity.
Qed.

Definition tr2 (f : vec) : vec :=      (* swap the last two indices *)
  fun c => let '(k, i, j) := split2 c in f (k ++ [j; i]).

Lemma app2 (k : list nat) i j : k ++ [i; j] = (k ++ [i]) ++ [j].
Proof. rewrite <- app_assoc. reflexivity. Qed.

Lemma split2_app (k : list nat) i j : split2 (k ++ [i; j]) = (k, i, j).
Proof. unfold split2. rewrite app2, !split_last_app. reflexivity. Qed.

Lemma tr2_app (f : vec) k i j : tr2 f (k ++ [i; j]) = f (k ++ [j; i]).
Proof. unfold tr2. rewrite split2_app. reflexivity. Qed.

(* The rank-1 maps act on the last index through a matrix of coefficients, the rank-2 maps through
   one such matrix for each of the last two indices. *)
Definition coef (p : pb) (i m : nat) : A :=
  match p with PCov => Kinv [m; i] | _ => (k1 / detJ * J [i; m])%K end.

Inductive composes : pb -> pb -> pb -> Prop :=
 | comp_cov : composes PCov PCov PDCov
 | comp_contra : composes PContra PContra PDContra
 | comp_covcontra : composes PCov PContra PCovContra.

Lemma pf1_app p (r : vec) k i : p = PCov \/ p = PContra ->
  pf_leaf p r (k ++ [i]) = ksum tdim (fun j => (coef p i j * r (k ++ [j]))%K).
Proof. intros [->| ->]; cbn [pf_leaf coef]; rewrite split_last_app; reflexivity. Qed.

Theorem pf_composes p q d (r : vec) k i j : composes p q d ->
  pf_leaf d r (k ++ [i; j]) = pf_leaf q (tr2 (pf_leaf p (tr2 r))) (k ++ [i; j]).
Proof.
  intros C.
  assert (R : (p = PCov \/ p = PContra) /\ (q = PCov \/ q = PContra)) by (destruct C; auto).
  transitivity (ksum tdim (fun m => ksum tdim (fun n => (coef p i m * r (k ++ [m; n]) * coef q j n)%K))).
  { destruct C; cbn [pf_leaf coef]; rewrite split2_app;
      apply ksum_ext; intros m _; apply ksum_ext; intros n _; ring. }
  rewrite (app2 k i j), (pf1_app q), ksum_swap by apply R. apply ksum_ext; intros n _.
  rewrite <- app2, tr2_app, (app2 k n i), (pf1_app p), <- ksum_scal by apply R.
  apply ksum_ext; intros m _. rewrite <- app2, tr2_app. ring.
Qed.

Theorem C08_double_cov_is_cov_twice (r : vec) k i j :
  pf_leaf PDCov r (k ++ [i; j])
  = pf_leaf PCov (tr2 (pf_leaf PCov (tr2 r))) (k ++ [i; j]).
Proof. apply pf_composes, comp_cov. Qed.

Theorem C08_double_contra_is_contra_twice (r : vec) k i j :
  pf_leaf PDContra r (k ++ [i; j])
  = pf_leaf PContra (tr2 (pf_leaf PContra (tr2 r))) (k ++ [i; j]).
Proof. apply pf_composes, comp_contra. Qed.

Theorem C08_covcontra_is_cov_then_contra (r : vec) k i j :
  pf_leaf PCovContra r (k ++ [i; j])
  = pf_leaf PContra (tr2 (pf_leaf PCov (tr2 r))) (k ++ [i; j]).
Proof. apply pf_composes, comp_covcontra. Qed.

(* the push-forward inverts the pull-back when K J = I_tdim (K the left inverse of J: true on
   immersed manifolds as well) *)

Open Scope K_scope.
(* convertible with [Facts.delta], which the two theorems below switch to *)
Definition delta (i j : nat) : A := if Nat.eqb i j then k1 else k0.
Hypothesis KJ : forall a b, (a < tdim)%nat -> (b < tdim)%nat ->
  ksum gdim (fun i => Kinv [a; i] * J [i; b]) = delta a b.

Lemma ksum_delta n (f : nat -> A) a : (a < n)%nat -> ksum n (fun b => delta a b * f b) = f a.
Proof.
  intros H. rewrite <- (Facts.ksum_delta A n a f H). apply ksum_ext; intros b _.
  unfold delta, Facts.delta. rewrite Nat.eqb_sym. reflexivity.
Qed.

(* sum_i sum_j M i j * v j = sum_j (sum_i M i j) * v j *)
Lemma ksum_mat_vec n m (M : nat -> nat -> A) (v : nat -> A) :
  ksum n (fun i => ksum m (fun j => M i j * v j)) = ksum m (fun j => ksum n (fun i => M i j) * v j).
Proof.
  rewrite ksum_swap. apply ksum_ext; intros j _.
  rewrite (ksum_ext A n _ (fun i => v j * M i j)) by (intros; ring). rewrite ksum_scal. ring.
Qed.

(* covariant: the reference value of the pushed-forward field, J^T f, is r again *)
Theorem C08_cov_pullback_inverse (r : vec) k b : (b < tdim)%nat ->
  ksum gdim (fun i => J [i; b] * pf_leaf PCov r (k ++ [i])) = r (k ++ [b]).
Proof.
  intros Hb. cbn [pf_leaf].
  rewrite (ksum_ext A gdim _ (fun i => ksum tdim (fun j => (Kinv [j; i] * J [i; b]) * r (k ++ [j])))).
  2:{ intros i _. rewrite split_last_app, <- ksum_scal. apply ksum_ext; intros j _. ring. }
  rewrite ksum_mat_vec, (ksum_ext A tdim _ (fun j => Facts.delta j b * r (k ++ [j])))
    by (intros j Hj; rewrite (KJ j b Hj Hb); reflexivity).
  apply (Facts.ksum_delta A tdim b (fun j => r (k ++ [j])) Hb).
Qed.

(* contravariant: detJ K f is r again *)
Theorem C08_contra_pullback_inverse (r : vec) k a : (a < tdim)%nat -> detJ <> k0 ->
  ksum gdim (fun i => detJ * Kinv [a; i] * pf_leaf PContra r (k ++ [i])) = r (k ++ [a]).
Proof.
  intros Ha Hd. cbn [pf_leaf].
  rewrite (ksum_ext A gdim _ (fun i => ksum tdim (fun j => (Kinv [a; i] * J [i; j]) * r (k ++ [j])))).
  2:{ intros i _. rewrite split_last_app, <- ksum_scal. apply ksum_ext; intros j _. field. exact Hd. }
  rewrite ksum_mat_vec, (ksum_ext A tdim _ (fun j => delta a j * r (k ++ [j])))
    by (intros j Hj; rewrite (KJ a j Ha Hj); reflexivity).
  apply (ksum_delta tdim (fun j => r (k ++ [j])) a Ha).
Qed.

End C08.

Arguments pf {_}. Arguments apply_m {_}. Arguments pf_leaf {_}.

(* Mixed element on a MeshSequence: sub-element number i lives on component mesh number i and is
   pushed forward with THAT mesh's J, K, detJ (all component meshes have the same cell type and
   geometric dimension).  Specification [pf_meshseq], model [apply_meshseq] of the MeshSequence
   branch of MixedPullback.apply (subdomain = domain[i]), theorem for all lists of (geometry,
   element tree). *)
Section C08seq.
Variable A : ualg.
Variables gdim tdim : nat.
Record geo := { g_J : list nat -> A; g_K : list nat -> A; g_det : A }.

Fixpoint pf_seq (l : list (geo * elem)) (r : vec A) (roff n : nat) {struct l} : A :=
  match l with
  | [] => k0
  | (g, x) :: t =>
      if n <? psize gdim x
      then pf gdim tdim (g_J g) (g_K g) (g_det g) x (subvec A r roff (rshape x)) (unflat (pshape gdim x) n)
      else pf_seq t r (roff + rsize x) (n - psize gdim x)
  end.
Definition pf_meshseq (l : list (geo * elem)) (r : vec A) (c : list nat) : A :=
  match c with [n] => pf_seq l r 0 n | _ => k0 end.

Fixpoint seq_rsize (l : list (geo * elem)) : nat :=
  match l with [] => 0 | (_, x) :: t => rsize x + seq_rsize t end.
Fixpoint seq_psize (l : list (geo * elem)) : nat :=
  match l with [] => 0 | (_, x) :: t => psize gdim x + seq_psize t end.

Fixpoint go_seq (rflat : list A) (l : list (geo * elem)) (off : nat) {struct l} : list A :=
  match l with
  | [] => []
  | (g, x) :: t =>
      flatten A (pshape gdim x)
        (apply_m gdim tdim (g_J g) (g_K g) (g_det g) x (reshape A (rshape x) (slice A off (rsize x) rflat)))
      ++ go_seq rflat t (off + rsize x)
  end.
Definition apply_meshseq (l : list (geo * elem)) (r : vec A) : vec A :=
  reshape A [seq_psize l] (go_seq (flatten A [seq_rsize l] r) l 0).

Fixpoint seq_wf (l : list (geo * elem)) : Prop :=
  match l with [] => True | (_, x) :: t => wf gdim x /\ seq_wf t end.

Lemma go_seq_nth N (r1 r2 : vec A) (E : forall c, r1 c = r2 c) :
  forall l, seq_wf l -> forall off n, off + seq_rsize l <= N ->
  nth n (go_seq (flatten A [N] r1) l off) k0 = pf_seq l r2 off n.
Proof.
  induction l as [|[g x] t IHl]; intros W off n Hoff; cbn [seq_rsize go_seq pf_seq] in *;
    [destruct n; reflexivity|].
  destruct W as [Wx Wt].
  destruct (blk_ok A gdim tdim (g_J g) (g_K g) (g_det g) N r1 r2 x off E
              (C08_mixed_symmetric A gdim tdim _ _ _ x Wx)) as [L B]; [lia|].
  rewrite (nth_app_pick _ _ _ _ _ L). destruct (n <? psize gdim x) eqn:C.
  - apply B, Nat.ltb_lt, C.
  - apply IHl; [exact Wt | lia].
Qed.

Theorem C08_mesh_sequence l : seq_wf l -> forall r1 r2 c,
  (forall c', r1 c' = r2 c') -> inrange [seq_psize l] c = true ->
  apply_meshseq l r1 c = pf_meshseq l r2 c.
Proof.
  intros W r1 r2 c E R. destruct (reshape_1 A _ _ R) as (n & -> & Eg).
  unfold apply_meshseq, pf_meshseq. rewrite Eg. exact (go_seq_nth _ r1 r2 E l W 0 n (Nat.le_refl _)).
Qed.
End C08seq.
Arguments pf_meshseq {_}. Arguments apply_meshseq {_}. Arguments Build_geo {_}.

Print Assumptions C08_mixed_symmetric.
Print Assumptions C08_mesh_sequence.
Print Assumptions C08_double_cov_is_cov_twice.
Print Assumptions C08_double_contra_is_contra_twice.
Print Assumptions C08_covcontra_is_cov_then_contra.
Print Assumptions C08_cov_pullback_inverse.
Print Assumptions C08_contra_pullback_inverse.
