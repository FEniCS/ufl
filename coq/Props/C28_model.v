(* C28 - Base-form algebra has the semantics of the linear maps it denotes.

   Syntax [bform]: the objects the implementation builds (Form = integer combination of opaque base
   forms, Matrix / Cofunction leaves, Coefficient, sum of Coefficients, ZeroBaseForm, FormSum with
   integer weights, Action, Adjoint, Coargument / Argument = identity, and [Cyclic]: the Action object
   that Action.__new__ returned from an identity shortcut and that, in the pinned tree (m = true, see
   [isA]), Python then RE-INITIALISES with itself as operand - see C28_action_refuted).
   Semantics: an abstract multilinear-map algebra T (Section variables) with the laws listed below as
   hypotheses: commutative monoid (tadd, tzero), integer scaling, bilinear [contract] (contraction of
   the last argument of the left operand with the first of the right), linear involutive [transp],
   identity [ident].  The laws are instantiated (consistency) at the end of the file.
   Functions: Gallina models of FormSum.__new__/__init__ (mk_formsum), Action.__new__ (mk_action),
   Adjoint.__new__ (mk_adjoint), BaseForm/Form __add__/__sub__/__neg__/__rmul__, and of the number of
   arguments reported through _get_action_form_arguments / FormSum / Adjoint (rank). *)
Require Import List ZArith Bool Lia.
Import ListNotations.
Open Scope Z_scope.

Inductive bform :=
 | FormL (sg : list nat) (terms : list (Z * nat)) (* ufl.Form: sum of weight * base form id *)
 | Leaf (sg : list nat) (id : nat)               (* Matrix / Cofunction with argument spaces sg *)
 | Coef (id : nat)
 | CoefSum (ids : list nat)                      (* ufl Sum of Coefficients *)
 | ZeroF (sg : list nat)                        (* ZeroBaseForm: the spaces of its arguments *)
 | FSum (cs : list (bform * Z))
 | Act (l r : bform)
 | Adj (a : bform)
 | CoArg | Arg
 | Cyclic.

Definition is_zero (b : bform) : bool := match b with ZeroF _ => true | _ => false end.
Definition is_ident (b : bform) : bool := match b with CoArg | Arg => true | _ => false end.
Definition is_act (b : bform) : bool := match b with Act _ _ => true | _ => false end.
Definition is_forml (b : bform) : bool := match b with FormL _ _ => true | _ => false end.

(* the function spaces of the arguments reported by arguments(), in order (space codes: 0 = V,
   1 = V*, 2 = U, 3 = U*, ...): Action contracts the last argument of the left operand with the
   first of the right one, Adjoint reverses *)
Fixpoint sig (b : bform) : list nat :=
  match b with
  | FormL sg _ => sg
  | Leaf sg _ => sg
  | Coef _ | CoefSum _ => []
  | ZeroF sg => sg
  | FSum cs => match cs with [] => [] | (c, _) :: _ => sig c end
  | Act l r => removelast (sig l) ++ (match r with Coef _ | CoefSum _ => [] | _ => tl (sig r) end)
  | Adj a => rev (sig a)
  | CoArg => [0; 1]
  | Arg => []
  | Cyclic => []
  end%nat.
(* number of arguments reported by arguments() *)
Definition rank (b : bform) : nat := length (sig b).

(* does the object contain a re-initialised (self-referential) Action ? *)
Fixpoint cyc (b : bform) : bool :=
  match b with
  | Cyclic => true
  | FSum cs => (fix go (cs : list (bform * Z)) : bool :=
                  match cs with [] => false | (c, _) :: r => cyc c || go r end) cs
  | Act l r => cyc l || cyc r
  | Adj a => cyc a
  | _ => false
  end.

(* the simplifying constructors                                                               *)

Definition scale_terms (w : Z) (ts : list (Z * nat)) : list (Z * nat) :=
  map (fun t => (w * fst t, snd t)) ts.

(* FormSum.__init__: drop ZeroBaseForm components *)
Definition drop_zero (cs : list (bform * Z)) : list (bform * Z) :=
  filter (fun cw => negb (is_zero (fst cw))) cs.
(* flatten nested FormSum, multiplying the weights *)
Definition flatten (cs : list (bform * Z)) : list (bform * Z) :=
  flat_map (fun cw => match fst cw with
                      | FSum cs' => map (fun cw' => (fst cw', snd cw * snd cw')) cs'
                      | _ => [cw]
                      end) cs.
(* _sum_variational_components: all Forms are summed into ONE Form of weight 1 placed first *)
Definition merged (l : list (bform * Z)) : list (Z * nat) :=
  flat_map (fun cw => match fst cw with FormL _ ts => scale_terms (snd cw) ts | _ => [] end) l.
Definition others (l : list (bform * Z)) : list (bform * Z) :=
  filter (fun cw => negb (is_forml (fst cw))) l.
Definition first_form_rank (l : list (bform * Z)) : option (list nat) :=
  match filter (fun cw => is_forml (fst cw)) l with
  | (FormL r _, _) :: _ => Some r
  | _ => None
  end.
Definition sum_variational (l : list (bform * Z)) : list (bform * Z) :=
  match first_form_rank l with
  | Some r => (FormL r (merged l), 1) :: others l
  | None => l
  end.

Definition mk_formsum (cs : list (bform * Z)) : bform :=
  if forallb (fun cw => is_zero (fst cw)) cs
  then ZeroF (match cs with (c, _) :: _ => sig c | [] => [] end)
  else match cs with
       | [(a, 1)] => a
       | _ => FSum (sum_variational (flatten (drop_zero cs)))
       end.

(* When __new__ returns an instance of the class under construction, type.__call__ runs __init__ on
   it with the ORIGINAL operands.  For a freshly built Action / Adjoint coming out of
   FormSum((x, 1)) -> x  this just undoes the simplification: *)
(* m = true: the pinned behaviour (Action.__init__ runs on whatever Action.__new__ returned);
   m = false: the behaviour with fixes/C28-action-reinit.diff (an initialised Action is left alone) *)
Definition isA (m : bool) (b : bform) : bool := m && is_act b.
Definition fixA (m : bool) (l r res : bform) : bform := if isA m res then Act l r else res.
Definition is_adj (b : bform) : bool := match b with Adj _ => true | _ => false end.

(* Action.__new__ *)
Definition act_leaf (m : bool) (c c' : bform) : bform :=   (* Action(c, c'): neither zero nor FormSum *)
  if is_ident c' then (if isA m c then Cyclic else c) else Act c c'.
Definition act_right (m : bool) (c r : bform) : bform :=   (* Action(c, r): c not zero, not FormSum *)
  if is_ident c then (if isA m r then Cyclic else r)
  else match r with
       | FSum rs => fixA m c r (mk_formsum (map (fun cw => (act_leaf m c (fst cw), snd cw)) rs))
       | CoefSum ids => fixA m c r (mk_formsum (map (fun i => (Act c (Coef i), 1)) ids))
       | _ => Act c r
       end.
Definition mk_action (m : bool) (l r : bform) : bform :=
  if cyc l || cyc r then Cyclic
  else if is_zero l || is_zero r then ZeroF (sig (Act l r))
  else if is_ident l then (if isA m r then Cyclic else r)
  else if is_ident r then (if isA m l then Cyclic else l)
  else match l with
       | FSum cs => fixA m l r (mk_formsum (map (fun cw => (act_right m (fst cw) r, snd cw)) cs))
       | _ => act_right m l r
       end.

(* exactly the operand structures on which an identity shortcut returns an Action INSTANCE, which
   Python's type.__call__ then re-initialises with itself as operand *)
Definition reinit_right (m : bool) (c r : bform) : bool :=
  if is_ident c then isA m r
  else match r with
       | FSum rs => existsb (fun cw => is_ident (fst cw) && isA m c) rs
       | _ => false
       end.
Definition reinit (m : bool) (l r : bform) : bool :=
  if is_zero l || is_zero r then false
  else if is_ident l then isA m r
  else if is_ident r then isA m l
  else match l with
       | FSum cs => existsb (fun cw => reinit_right m (fst cw) r) cs
       | _ => reinit_right m l r
       end.

(* Adjoint.__new__ *)
Definition adj1 (c : bform) : bform :=
  match c with Adj a => a | CoArg => Arg | _ => Adj c end.
Definition mk_adjoint (a : bform) : bform :=
  if cyc a then Cyclic
  else match a with
       | ZeroF sg => ZeroF (rev sg)            (* the arguments are swapped *)
       | Adj a' => a'
       | FSum cs => let res := mk_formsum (map (fun cw => (adj1 (fst cw), snd cw)) cs) in
                    if is_adj res then Adj a else res
       | CoArg => Arg
       | _ => Adj a
       end.

(* BaseForm / Form operators *)
Definition mk_add (a b : bform) : bform :=
  match a, b with
  | FormL r ta, FormL _ tb => FormL r (ta ++ tb)
  | _, _ => if is_zero b then a else if is_zero a then b else mk_formsum [(a, 1); (b, 1)]
  end.
Definition mk_neg (a : bform) : bform :=
  match a with
  | ZeroF _ => a
  | FormL r t => FormL r (scale_terms (-1) t)
  | _ => mk_formsum [(a, -1)]
  end.
Definition mk_sub (a b : bform) : bform := mk_add a (mk_neg b).
Definition mk_rmul (w : Z) (a : bform) : bform :=
  match a with
  | FormL r t => FormL r (scale_terms w t)
  | _ => mk_formsum [(a, w)]
  end.

(* nested induction principle for bform *)
Section BformInd.
Variable P : bform -> Prop.
Hypothesis HFormL : forall sg ts, P (FormL sg ts).
Hypothesis HLeaf : forall sg i, P (Leaf sg i).
Hypothesis HCoef : forall i, P (Coef i).
Hypothesis HCoefSum : forall ids, P (CoefSum ids).
Hypothesis HZeroF : forall sg, P (ZeroF sg).
Hypothesis HFSum : forall cs, Forall (fun cw => P (fst cw)) cs -> P (FSum cs).
Hypothesis HAct : forall l r, P l -> P r -> P (Act l r).
Hypothesis HAdj : forall a, P a -> P (Adj a).
Hypothesis HCoArg : P CoArg.
Hypothesis HArg : P Arg.
Hypothesis HCyclic : P Cyclic.
Fixpoint bform_ind' (b : bform) : P b :=
  match b with
  | FormL sg ts => HFormL sg ts
  | Leaf sg i => HLeaf sg i
  | Coef i => HCoef i
  | CoefSum ids => HCoefSum ids
  | ZeroF sg => HZeroF sg
  | FSum cs => HFSum cs
      ((fix aux (l : list (bform * Z)) : Forall (fun cw => P (fst cw)) l :=
          match l with
          | [] => Forall_nil _
          | cw :: r => Forall_cons cw (match cw as p return P (fst p) with (c, _) => bform_ind' c end) (aux r)
          end) cs)
  | Act l r => HAct l r (bform_ind' l) (bform_ind' r)
  | Adj a => HAdj a (bform_ind' a)
  | CoArg => HCoArg
  | Arg => HArg
  | Cyclic => HCyclic
  end.
End BformInd.

(* map_integrands (ufl/algorithms/map_integrands.py) for a function that makes the base forms KF and
   the Matrix/Cofunction leaves KX vanish (integrand -> Zero, leaf -> ZeroBaseForm) and is the identity
   elsewhere.  FormSum branch: the mapped components that vanished are dropped TOGETHER WITH THEIR
   WEIGHTS; all vanished -> ZeroBaseForm(arguments of the first mapped component); one survivor of
   weight 1 -> the survivor; Adjoint / Action are rebuilt through their constructors. *)
Definition memb (i : nat) (l : list nat) : bool := existsb (Nat.eqb i) l.
Definition map_fs (mapped : list (bform * Z)) : bform :=
  match drop_zero mapped with
  | [] => ZeroF (match mapped with (c, _) :: _ => sig c | [] => [] end)
  | nz => mk_formsum nz
  end.
Definition keep_terms (KF : list nat) (ts : list (Z * nat)) : list (Z * nat) :=
  filter (fun t => negb (memb (snd t) KF)) ts.
Fixpoint mapK (m : bool) (KF KX : list nat) (b : bform) : bform :=
  match b with
  | FormL sg ts => match keep_terms KF ts with [] => FormL [] [] | ts' => FormL sg ts' end
  | Leaf sg i => if memb i KX then ZeroF sg else b
  | FSum cs => map_fs ((fix go (cs : list (bform * Z)) : list (bform * Z) :=
                          match cs with [] => [] | (c, w) :: r => (mapK m KF KX c, w) :: go r end) cs)
  | Act l r => mk_action m (mapK m KF KX l) (mapK m KF KX r)
  | Adj a => mk_adjoint (mapK m KF KX a)
  | _ => b
  end.
(* the rebuilt Action / Adjoint calls stay outside the re-initialisation class *)
Fixpoint msafe (m : bool) (KF KX : list nat) (b : bform) : bool :=
  match b with
  | FSum cs => (fix go (cs : list (bform * Z)) : bool :=
                  match cs with [] => true | (c, _) :: r => msafe m KF KX c && go r end) cs
  | Act l r => msafe m KF KX l && msafe m KF KX r
               && negb (cyc (mapK m KF KX l)) && negb (cyc (mapK m KF KX r))
               && negb (reinit m (mapK m KF KX l) (mapK m KF KX r))
  | Adj a => msafe m KF KX a && negb (cyc (mapK m KF KX a))
  | _ => true
  end.

(* compositions: the syntax the theorems quantify over *)
Inductive bexp :=
 | EObj (b : bform)                 (* a leaf object: Form, Matrix, Cofunction, Coefficient, ... *)
 | EAdd (a b : bexp) | ESub (a b : bexp) | ENeg (a : bexp) | EMul (w : Z) (a : bexp)
 (* a literal zero (0, 0.0, ufl Zero) as the other operand: a + 0, 0 + a (sum([...])), a - 0, and the
    reflected subtraction 0 - a = BaseForm.__rsub__ *)
 | EAddZero (a : bexp) | ESubZero (a : bexp) | ERSubZero (a : bexp)
 | EFormSum1 (a : bexp) (w : Z)
 | EFormSum2 (a : bexp) (wa : Z) (b : bexp) (wb : Z)
 | EFormSum3 (a : bexp) (wa : Z) (b : bexp) (wb : Z) (c : bexp) (wc : Z)
 | EAction (l r : bexp)
 | EAdjoint (a : bexp).

Fixpoint build (m : bool) (e : bexp) : bform :=
  match e with
  | EObj b => b
  | EAdd a b => mk_add (build m a) (build m b)
  | ESub a b => mk_sub (build m a) (build m b)
  | ENeg a => mk_neg (build m a)
  | EAddZero a | ESubZero a => build m a
  | ERSubZero a => mk_neg (build m a)       (* other + (-self) with other = 0 *)
  | EMul w a => mk_rmul w (build m a)
  | EFormSum1 a w => mk_formsum [(build m a, w)]
  | EFormSum2 a wa b wb => mk_formsum [(build m a, wa); (build m b, wb)]
  | EFormSum3 a wa b wb c wc => mk_formsum [(build m a, wa); (build m b, wb); (build m c, wc)]
  | EAction l r => mk_action m (build m l) (build m r)
  | EAdjoint a => mk_adjoint (build m a)
  end.

(* the conjuncts of a [safe] / [msafe] hypothesis, each [negb b = true] as [b = false] *)
Ltac split_safe :=
  repeat match goal with
         | H : _ && _ = true |- _ => apply andb_true_iff in H; destruct H
         | H : negb _ = true |- _ => apply negb_true_iff in H
         end.

Section Semantics.
Variable T : Type.
Variables (tzero : T) (tadd : T -> T -> T) (tscale : Z -> T -> T).
Variables (contract : T -> T -> T) (transp : T -> T) (ident : T).
Variable F : nat -> T.                (* base variational forms *)
Variable X : nat -> T.                (* Matrix / Cofunction leaves *)
Variable Y : nat -> T.                (* Coefficients *)
Variable junk : T.                    (* a re-initialised Action has no meaning *)

Hypothesis A1 : forall a b, tadd a b = tadd b a.
Hypothesis A2 : forall a b c, tadd a (tadd b c) = tadd (tadd a b) c.
Hypothesis A3 : forall a, tadd tzero a = a.
Hypothesis S1 : forall a, tscale 1 a = a.
Hypothesis S2 : forall w w' a, tscale w (tscale w' a) = tscale (w * w') a.
Hypothesis S3 : forall w a b, tscale w (tadd a b) = tadd (tscale w a) (tscale w b).
Hypothesis S4 : forall w, tscale w tzero = tzero.
Hypothesis C1 : forall a b c, contract (tadd a b) c = tadd (contract a c) (contract b c).
Hypothesis C2 : forall w a c, contract (tscale w a) c = tscale w (contract a c).
Hypothesis C3 : forall c, contract tzero c = tzero.
Hypothesis C1' : forall a b c, contract c (tadd a b) = tadd (contract c a) (contract c b).
Hypothesis C2' : forall w a c, contract c (tscale w a) = tscale w (contract c a).
Hypothesis C3' : forall c, contract c tzero = tzero.
Hypothesis T1 : forall a, transp (transp a) = a.
Hypothesis T2 : forall a b, transp (tadd a b) = tadd (transp a) (transp b).
Hypothesis T3 : forall w a, transp (tscale w a) = tscale w (transp a).
Hypothesis T4 : transp tzero = tzero.
Hypothesis I1 : forall a, contract ident a = a.
Hypothesis I2 : forall a, contract a ident = a.
Hypothesis I3 : transp ident = ident.

Lemma A3r a : tadd a tzero = a.
Proof. rewrite A1; apply A3. Qed.

Definition tsum_terms (ts : list (Z * nat)) : T :=
  fold_right (fun t acc => tadd (tscale (fst t) (F (snd t))) acc) tzero ts.

Fixpoint assemble (b : bform) : T :=
  match b with
  | FormL _ ts => tsum_terms ts
  | Leaf _ i => X i
  | Coef i => Y i
  | CoefSum ids => fold_right (fun i acc => tadd (Y i) acc) tzero ids
  | ZeroF _ => tzero
  | FSum cs => (fix go (cs : list (bform * Z)) : T :=
                  match cs with [] => tzero | (c, w) :: r => tadd (tscale w (assemble c)) (go r) end) cs
  | Act l r => contract (assemble l) (assemble r)
  | Adj a => transp (assemble a)
  | CoArg | Arg => ident
  | Cyclic => junk
  end.

Definition wsum (cs : list (bform * Z)) : T :=
  fold_right (fun cw acc => tadd (tscale (snd cw) (assemble (fst cw))) acc) tzero cs.

Lemma assemble_FSum cs : assemble (FSum cs) = wsum cs.
Proof. simpl. induction cs as [|[c w] r IH]; simpl; auto. rewrite IH. reflexivity. Qed.

Lemma wsum_app l1 l2 : wsum (l1 ++ l2) = tadd (wsum l1) (wsum l2).
Proof. induction l1 as [|[c w] r IH]; simpl; [symmetry; apply A3|]. rewrite IH. apply A2. Qed.

Lemma tsum_app l1 l2 : tsum_terms (l1 ++ l2) = tadd (tsum_terms l1) (tsum_terms l2).
Proof. induction l1 as [|t r IH]; simpl; [symmetry; apply A3|]. rewrite IH. apply A2. Qed.

Lemma tsum_scale w ts : tsum_terms (scale_terms w ts) = tscale w (tsum_terms ts).
Proof.
  induction ts as [|t r IH]; simpl; [symmetry; apply S4|]. rewrite IH, S3, S2. reflexivity.
Qed.

Lemma wsum_scale w cs :
  wsum (map (fun cw' => (fst cw', w * snd cw')) cs) = tscale w (wsum cs).
Proof.
  induction cs as [|[c w'] r IH]; simpl; [symmetry; apply S4|]. rewrite IH, S3, S2. reflexivity.
Qed.

Lemma wsum_drop_zero cs : wsum (drop_zero cs) = wsum cs.
Proof.
  induction cs as [|[c w] r IH]; simpl; auto.
  destruct c; simpl; rewrite ?IH; auto. rewrite S4, A3. reflexivity.
Qed.

Lemma wsum_flatten cs : wsum (flatten cs) = wsum cs.
Proof.
  induction cs as [|[c w] r IH]; simpl; auto.
  rewrite wsum_app, IH. f_equal.
  destruct c; simpl; rewrite ?A3r; auto.
  rewrite wsum_scale. f_equal. symmetry. exact (assemble_FSum cs).
Qed.

(* a Form goes to the merged Form, anything else stays where it is *)
Lemma wsum_split cs :
  wsum cs = tadd (tsum_terms (merged cs)) (wsum (others cs)).
Proof.
  induction cs as [|[c w] r IH]; [symmetry; apply A3|].
  change (wsum ((c, w) :: r)) with (tadd (tscale w (assemble c)) (wsum r)). rewrite IH.
  destruct (is_forml c) eqn:E.
  - destruct c; try discriminate E.
    transitivity (tadd (tsum_terms (scale_terms w terms ++ merged r)) (wsum (others r))); [|reflexivity].
    rewrite tsum_app, tsum_scale. apply A2.
  - replace (merged ((c, w) :: r)) with (merged r) by (destruct c; try discriminate E; reflexivity).
    unfold others. cbn [filter fst]. rewrite E. cbn [negb wsum fold_right fst snd].
    rewrite !A2. f_equal. apply A1.
Qed.

Lemma wsum_sum_variational cs : wsum (sum_variational cs) = wsum cs.
Proof.
  unfold sum_variational. destruct (first_form_rank cs); auto.
  simpl. rewrite S1. symmetry. apply wsum_split.
Qed.

Lemma wsum_all_zero cs : forallb (fun cw => is_zero (fst cw)) cs = true -> wsum cs = tzero.
Proof.
  induction cs as [|[c w] r IH]; simpl; auto. intros H. apply andb_true_iff in H. destruct H as [H1 H2].
  destruct c; try discriminate. simpl. rewrite S4, A3. auto.
Qed.

(** FormSum.__new__/__init__ : zero elimination, flattening, weight products, merging of the
    variational components, FormSum((a, 1)) -> a  preserve the weighted sum, for ALL component lists *)
Theorem C28_formsum_sound : forall cs, assemble (mk_formsum cs) = wsum cs.
Proof.
  intros cs. unfold mk_formsum.
  destruct (forallb (fun cw => is_zero (fst cw)) cs) eqn:E.
  - simpl. symmetry. apply wsum_all_zero; auto.
  - assert (G : assemble (FSum (sum_variational (flatten (drop_zero cs)))) = wsum cs).
    { rewrite assemble_FSum, wsum_sum_variational, wsum_flatten, wsum_drop_zero. reflexivity. }
    (* the one other branch of [mk_formsum] is cs = [(a, 1)]: the list has one pair, its weight is the
       positive number xH *)
    destruct cs as [|[a w] t]; try exact G.
    destruct w as [|q|q]; try (destruct t; exact G).
    destruct q; try (destruct t; exact G).
    destruct t; try exact G. simpl. rewrite S1, A3r. reflexivity.
Qed.

(* a linear map [phi] (contraction with a fixed operand on either side, transposition) goes through
   the weighted sum, component by component *)
Lemma wsum_map_linear (phi : T -> T) (g : bform -> bform) cs :
  phi tzero = tzero -> (forall a b, phi (tadd a b) = tadd (phi a) (phi b)) ->
  (forall w a, phi (tscale w a) = tscale w (phi a)) ->
  (forall c, In c (map fst cs) -> assemble (g c) = phi (assemble c)) ->
  wsum (map (fun cw => (g (fst cw), snd cw)) cs) = phi (wsum cs).
Proof.
  intros P0 Padd Pscale. induction cs as [|[c w] r IH]; simpl; intros H; [symmetry; exact P0|].
  rewrite IH by (intros; apply H; auto). rewrite Padd, Pscale, H by auto. reflexivity.
Qed.

Lemma existsb_false {U} (f : U -> bool) l x : existsb f l = false -> In x l -> f x = false.
Proof.
  intros E Hin. destruct (f x) eqn:Ex; [|reflexivity].
  rewrite <- E. symmetry. apply existsb_exists. exists x. auto.
Qed.

Lemma act_leaf_sound m c c' : (is_ident c' && isA m c) = false ->
  assemble (act_leaf m c c') = contract (assemble c) (assemble c').
Proof.
  unfold act_leaf. intros H. destruct (is_ident c') eqn:E; auto.
  simpl in H. rewrite H. destruct c'; try discriminate; simpl; rewrite I2; auto.
Qed.

Lemma fixA_sound m l r res : assemble res = contract (assemble l) (assemble r) ->
  assemble (fixA m l r res) = contract (assemble l) (assemble r).
Proof. unfold fixA. destruct (isA m res); auto. Qed.

Lemma act_right_sound m c r : reinit_right m c r = false ->
  assemble (act_right m c r) = contract (assemble c) (assemble r).
Proof.
  unfold act_right, reinit_right. intros H. destruct (is_ident c) eqn:E.
  - rewrite H. destruct c; try discriminate; simpl; rewrite I1; auto.
  - destruct r; auto.
    + (* CoefSum *) apply fixA_sound. rewrite C28_formsum_sound. simpl.
      induction ids as [|i ids IH]; simpl; [symmetry; apply C3'|].
      rewrite IH, C1', S1. reflexivity.
    + (* FSum *) apply fixA_sound. rewrite C28_formsum_sound, assemble_FSum.
      apply (wsum_map_linear (contract (assemble c))); auto. intros c' Hc'. apply act_leaf_sound.
      apply in_map_iff in Hc'. destruct Hc' as [cw [<- Hin]].
      exact (existsb_false _ _ cw H Hin).
Qed.

(** Action.__new__ : zero, identity (Argument / Coargument), distribution over FormSum on either
    side and over sums of Coefficients preserve the contraction - for ALL operands outside the
    re-initialisation class [reinit] *)
Theorem C28_action_partial : forall m l r, cyc l = false -> cyc r = false -> reinit m l r = false ->
  assemble (mk_action m l r) = contract (assemble l) (assemble r).
Proof.
  intros m l r Hl Hr H. unfold mk_action, reinit in *. rewrite Hl, Hr. simpl.
  destruct (is_zero l || is_zero r) eqn:Ez.
  - simpl. apply orb_true_iff in Ez. destruct Ez as [Ez|Ez].
    + destruct l; try discriminate. simpl. symmetry; apply C3.
    + destruct r; try discriminate. simpl. symmetry; apply C3'.
  - destruct (is_ident l) eqn:El.
    + rewrite H. destruct l; try discriminate; simpl; rewrite I1; auto.
    + destruct (is_ident r) eqn:Er.
      * rewrite H. destruct r; try discriminate; simpl; rewrite I2; auto.
      * destruct l; try (apply act_right_sound; exact H).
        apply fixA_sound. rewrite C28_formsum_sound, assemble_FSum.
        apply (wsum_map_linear (fun x => contract x (assemble r)) (fun c => act_right m c r)); auto.
        intros c Hc. apply act_right_sound.
        apply in_map_iff in Hc. destruct Hc as [cw [<- Hin]].
        exact (existsb_false _ _ cw H Hin).
Qed.

Lemma adj1_sound c : assemble (adj1 c) = transp (assemble c).
Proof. destruct c; simpl; auto. Qed.

(** Adjoint.__new__ : adjoint of zero, of an adjoint, of a FormSum, of a Coargument *)
Theorem C28_adjoint_sound : forall a, cyc a = false ->
  assemble (mk_adjoint a) = transp (assemble a).
Proof.
  intros a Ha. unfold mk_adjoint. rewrite Ha.
  destruct a; simpl; auto.
  match goal with |- assemble (if ?b then _ else _) = _ => destruct b; [reflexivity|] end.
  rewrite C28_formsum_sound.
  change (wsum (map (fun cw => (adj1 (fst cw), snd cw)) cs) = transp (assemble (FSum cs))).
  rewrite assemble_FSum. apply (wsum_map_linear transp); auto. intros c _. apply adj1_sound.
Qed.

Theorem C28_add_sound : forall a b, assemble (mk_add a b) = tadd (assemble a) (assemble b).
Proof.
  intros a b. unfold mk_add.
  assert (G : assemble (if is_zero b then a else if is_zero a then b else mk_formsum [(a, 1); (b, 1)])
              = tadd (assemble a) (assemble b)).
  { destruct (is_zero b) eqn:Eb.
    - destruct b; try discriminate. simpl. symmetry; apply A3r.
    - destruct (is_zero a) eqn:Ea.
      + destruct a; try discriminate. simpl. symmetry; apply A3.
      + rewrite C28_formsum_sound. simpl. rewrite !S1, A3r. reflexivity. }
  destruct a; auto. destruct b; auto. simpl. apply tsum_app.
Qed.

Theorem C28_rmul_sound : forall w a, assemble (mk_rmul w a) = tscale w (assemble a).
Proof.
  intros w a. unfold mk_rmul.
  destruct a; try (rewrite C28_formsum_sound; simpl; rewrite A3r; reflexivity).
  simpl. apply tsum_scale.
Qed.

(* on every kind of object [mk_neg a] is [mk_rmul (-1) a], up to the arguments recorded in a ZeroBaseForm *)
Theorem C28_neg_sound : forall a, assemble (mk_neg a) = tscale (-1) (assemble a).
Proof.
  intros a. destruct a;
    lazymatch goal with |- assemble (mk_neg ?x) = _ => exact (C28_rmul_sound (-1) x) end.
Qed.

(* the intended value of map_integrands(kill KF, KX): the killed leaves denote zero *)
Section MapIntegrands.
Variables (m : bool) (KF KX : list nat).
Fixpoint assembleK (b : bform) : T :=
  match b with
  | FormL _ ts => tsum_terms (keep_terms KF ts)
  | Leaf _ i => if memb i KX then tzero else X i
  | FSum cs => (fix go (cs : list (bform * Z)) : T :=
                  match cs with [] => tzero | (c, w) :: r => tadd (tscale w (assembleK c)) (go r) end) cs
  | Act l r => contract (assembleK l) (assembleK r)
  | Adj a => transp (assembleK a)
  | _ => assemble b
  end.

Lemma map_fs_sound mapped : assemble (map_fs mapped) = wsum mapped.
Proof.
  unfold map_fs. rewrite <- (wsum_drop_zero mapped).
  destruct (drop_zero mapped) eqn:E; [reflexivity|]. rewrite <- E. apply C28_formsum_sound.
Qed.

(** map_integrands preserves the map: for ALL base forms b (nested induction) whose rebuilt Action
    calls stay outside the re-initialisation class *)
Theorem C28_map_integrands_partial : forall b, msafe m KF KX b = true ->
  assemble (mapK m KF KX b) = assembleK b.
Proof.
  induction b using bform_ind'; intros Hs; try reflexivity.
  - (* Form *) simpl. destruct (keep_terms KF ts); reflexivity.
  - (* leaf *) simpl. destruct (memb i KX); reflexivity.
  - (* FormSum *) simpl. rewrite map_fs_sound. simpl in Hs.
    induction cs as [|[c w] r IHr]; [reflexivity|].
    inversion H as [|? ? Hc Hr]; subst. apply andb_true_iff in Hs. destruct Hs as [Hs1 Hs2].
    simpl in Hc. simpl. rewrite (Hc Hs1). f_equal. apply IHr; assumption.
  - (* Action *) simpl in *.
    split_safe.
    rewrite C28_action_partial, IHb1, IHb2; auto.
  - (* Adjoint *) simpl in *.
    split_safe.
    rewrite C28_adjoint_sound, IHb; auto.
Qed.
End MapIntegrands.

(* the specification of a composition: plain multilinear algebra, no simplification *)
Fixpoint denote (e : bexp) : T :=
  match e with
  | EObj b => assemble b
  | EAdd a b => tadd (denote a) (denote b)
  | ESub a b => tadd (denote a) (tscale (-1) (denote b))
  | ENeg a => tscale (-1) (denote a)
  | EAddZero a | ESubZero a => denote a
  | ERSubZero a => tscale (-1) (denote a)
  | EMul w a => tscale w (denote a)
  | EFormSum1 a w => tscale w (denote a)
  | EFormSum2 a wa b wb => tadd (tscale wa (denote a)) (tscale wb (denote b))
  | EFormSum3 a wa b wb c wc => tadd (tscale wa (denote a)) (tadd (tscale wb (denote b)) (tscale wc (denote c)))
  | EAction l r => contract (denote l) (denote r)
  | EAdjoint a => transp (denote a)
  end.

(* no constructor call of the composition falls into the re-initialisation class *)
Fixpoint safe (m : bool) (e : bexp) : bool :=
  match e with
  | EObj b => true
  | EAdd a b | ESub a b => safe m a && safe m b
  | ENeg a | EMul _ a | EFormSum1 a _ | EAddZero a | ESubZero a | ERSubZero a => safe m a
  | EAdjoint a => safe m a && negb (cyc (build m a))
  | EFormSum2 a _ b _ => safe m a && safe m b
  | EFormSum3 a _ b _ c _ => safe m a && safe m b && safe m c
  | EAction l r => safe m l && safe m r && negb (cyc (build m l)) && negb (cyc (build m r))
                   && negb (reinit m (build m l) (build m r))
  end.

(** Main theorem: for ALL compositions (induction on the syntax) whose Action calls stay outside the
    re-initialisation class, the object built by the simplifying constructors assembles to the
    multilinear map the composition denotes. *)
Theorem C28_build_partial : forall m e, safe m e = true -> assemble (build m e) = denote e.
Proof.
  intros m. induction e; simpl; intros H; split_safe.
  - reflexivity.
  - rewrite C28_add_sound, IHe1, IHe2; auto.
  - unfold mk_sub. rewrite C28_add_sound, C28_neg_sound, IHe1, IHe2; auto.
  - rewrite C28_neg_sound, IHe; auto.
  - rewrite C28_rmul_sound, IHe; auto.
  - auto.
  - auto.
  - rewrite C28_neg_sound, IHe; auto.
  - rewrite C28_formsum_sound. simpl. rewrite A3r, IHe; auto.
  - rewrite C28_formsum_sound. simpl. rewrite A3r, IHe1, IHe2; auto.
  - rewrite C28_formsum_sound. simpl. rewrite A3r, IHe1, IHe2, IHe3; auto.
  - rewrite C28_action_partial, IHe1, IHe2; auto.
  - rewrite C28_adjoint_sound, IHe; auto.
Qed.

End Semantics.

(** The identity shortcut of Action.__new__ returns its other operand; when that operand is itself
    an Action, type.__call__ runs Action.__init__(operand, left, right) on it, and in the pinned tree
    (m = true) the existing object becomes its own operand: the result is [Cyclic]. *)
Theorem C28_action_refuted :
  exists l r, cyc l = false /\ cyc r = false /\ cyc (mk_action true l r) = true.
Proof.
  exists (Act (Leaf [0; 1] 0) (Leaf [0; 1] 1))%nat, CoArg. repeat split; reflexivity.
Qed.

(* arguments(): left_args[:-1] + right_args[1:] for an Action node ([sig_act_length]); the results of the
   zero shortcut of mk_action and of mk_adjoint have the spaces of the unsimplified node
   ([C28_action_zero_sig], [C28_adjoint_sig]) *)
Lemma act_args_length {U} (l r : list U) :
  length (removelast l ++ tl r) = (length l - 1 + (length r - 1))%nat.
Proof.
  rewrite app_length. f_equal.
  - destruct l as [|x t] using rev_ind; auto. rewrite removelast_last, app_length. simpl. lia.
  - destruct r; simpl; lia.
Qed.

Lemma sig_act_length l r : rank (Act l r) = (rank l - 1 + (rank r - 1))%nat.
Proof.
  unfold rank. cbn [sig]. replace (match r with Coef _ | CoefSum _ => [] | _ => tl (sig r) end) with (tl (sig r))
    by (destruct r; reflexivity).
  apply act_args_length.
Qed.

Theorem C28_action_zero_sig : forall l r, cyc l = false -> cyc r = false ->
  is_zero l || is_zero r = true -> forall m, sig (mk_action m l r) = sig (Act l r).
Proof. intros l r Hl Hr H m. unfold mk_action. rewrite Hl, Hr, H. reflexivity. Qed.

Theorem C28_adjoint_sig : forall a, cyc a = false -> (forall cs, a <> FSum cs) -> a <> CoArg ->
  sig (mk_adjoint a) = rev (sig a).
Proof.
  intros a Ha Hf Hc. unfold mk_adjoint. rewrite Ha. destruct a; try reflexivity.
  - exfalso; eapply Hf; reflexivity.
  - simpl. symmetry. apply rev_involutive.
  - contradiction.
Qed.

(* The argument NUMBERS reported by arguments() (faithful to _get_action_form_arguments, which keeps
   the numbers of the operands:  left_args[:-1] + right_args[1:],  to Adjoint, which renumbers from 0,
   and to FormSum, which reports the sorted set union of its components' arguments). *)
Fixpoint uins (n : nat) (l : list nat) : list nat :=
  match l with
  | [] => [n]
  | m :: r => if (n <? m)%nat then n :: l else if (n =? m)%nat then l else m :: uins n r
  end.
Fixpoint nums (b : bform) : list nat :=
  match b with
  | FormL sg _ => seq 0 (length sg)
  | Leaf sg _ => seq 0 (length sg)
  | Coef _ | CoefSum _ => []
  | ZeroF sg => seq 0 (length sg)
  | FSum cs => (fix go (cs : list (bform * Z)) : list nat :=
                  match cs with [] => [] | (c, _) :: r => fold_right uins (go r) (nums c) end) cs
  | Act l r => removelast (nums l) ++ (match r with Coef _ | CoefSum _ => [] | _ => tl (nums r) end)
  | Adj a => seq 0 (length (nums a))
  | CoArg => [0%nat; 1%nat]
  | Arg => []
  | Cyclic => []
  end.

Lemma C28_arguments_action : forall l r,
  length (nums (Act l r)) = (length (nums l) - 1 + (length (nums r) - 1))%nat.
Proof.
  intros l r. cbn [nums]. replace (match r with Coef _ | CoefSum _ => [] | _ => tl (nums r) end) with (tl (nums r))
    by (destruct r; reflexivity).
  apply act_args_length.
Qed.

(** Because Action keeps the operands' argument numbers, two 1-forms can carry differently numbered
    arguments and their sum reports TWO arguments: a1 = Action(Adjoint(M), u) has (Coargument #0),
    a2 = Action(Action(Adjoint(M'), u), M'') has (Coargument #1). *)
Theorem C28_arguments_refuted :
  exists a b, length (nums a) = 1%nat /\ length (nums b) = 1%nat /\ rank (mk_add a b) = 1%nat
              /\ length (nums (mk_add a b)) = 2%nat.
Proof.
  exists (Act (Adj (Leaf [0; 1] 0)) (Coef 0))%nat, (Act (Act (Adj (Leaf [0; 1] 1)) (Coef 0)) (Leaf [0; 1] 2))%nat.
  repeat split; reflexivity.
Qed.

(* consistency of the hypotheses: they hold for the integers (rank-0 tensors: contraction = product,
   transpose = identity) *)
Theorem C28_laws_consistent : forall m (e : bexp), safe m e = true ->
  @assemble Z 0 Z.add Z.mul Z.mul (fun a => a) 1 (fun _ => 1) (fun _ => 1) (fun _ => 1) 0 (build m e)
  = @denote Z 0 Z.add Z.mul Z.mul (fun a => a) 1 (fun _ => 1) (fun _ => 1) (fun _ => 1) 0 e.
Proof.
  intros m e. apply C28_build_partial;
    auto using Z.add_comm, Z.add_assoc, Z.mul_1_l, Z.mul_1_r, Z.mul_assoc, Z.mul_add_distr_l, Z.mul_add_distr_r, Z.mul_0_r.
  intros w a c. apply Z.mul_shuffle3.
Qed.

Print Assumptions C28_formsum_sound.
Print Assumptions C28_action_partial.
Print Assumptions C28_adjoint_sound.
Print Assumptions C28_build_partial.
Print Assumptions C28_map_integrands_partial.
Print Assumptions C28_action_refuted.
Print Assumptions C28_arguments_refuted.
Print Assumptions C28_laws_consistent.
