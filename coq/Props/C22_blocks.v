(* C22 - Block extraction partitions mixed forms: the unbounded part.

   A mixed function with N flattened components is a map [nat -> A] (only components k < N matter);
   a partition of the components into sub-functions is any map [blk : nat -> nat] (component k
   belongs to sub-function [blk k]) with [blk k < n] for k < N -- this covers every MixedElement
   (scalar, vector, tensor and nested sub-elements, any number n of them).  An integrand that is
   linear in the test function is any [e : (nat -> A) -> A] that is additive and depends only on
   the components k < N.  [iota i v] is the zero-padded embedding of the i-th sub-function of v.

   Theorems (for every UFL algebra A, every n, every partition):
     C22_partition_linear    e v     = sum_i   e (iota i v)
     C22_partition_bilinear  e v u   = sum_i sum_j e (iota i v) (iota' j u)
     C22_block_independent   e (iota i v) (iota' j u) does not change when the other sub-functions do
     C22_embedding_den_new/_old   the ListTensor that FormSplitter.argument builds (replace_argument =
                             True / False) denotes iota i
   and the model of the all-blocks loops of extract_blocks as they are without /repo's repair of
   extract_blocks (grid n0 x n0, n0 taken from the first argument; /repo loops over the sub-spaces of
   each argument and returns a vector for a linear form, which is C22_partition_linear / _bilinear):
     C22_grid_partial            equal numbers of sub-spaces: the grid sums to e v u
     C22_grid_linear_scaled      linear form: the n0 x n0 grid sums to n0 * e v
     C22_grid_linear_refuted     ... which differs from e v          (known finding)
     C22_grid_trial_refuted      trial space with more sub-spaces: blocks are dropped (known finding) *)
Require Import UFLV.Core.Facts.

Section Blocks.
Variable A : ualg.
Add Field C22f : (kfield A).
Open Scope K_scope.

Definition vec := nat -> A.
Definition vzero : vec := fun _ => k0.
Definition vadd (v w : vec) : vec := fun k => v k + w k.

(* zero-padded embedding of sub-function i (w.r.t. the partition blk) *)
Definition iota (blk : nat -> nat) (i : nat) (v : vec) : vec :=
  fun k => if Nat.eqb (blk k) i then v k else k0.
(* the sub-functions below m *)
Definition below (blk : nat -> nat) (m : nat) (v : vec) : vec :=
  fun k => if Nat.ltb (blk k) m then v k else k0.

Section Linear.
Variable N : nat.
Variable e : vec -> A.
Hypothesis e_ext : forall v w, (forall k, k < N -> v k = w k) -> e v = e w.
Hypothesis e_add : forall v w, e (vadd v w) = e v + e w.

Lemma e_zero : e vzero = k0.
Proof.
  apply self_double. rewrite <- e_add. apply e_ext. intros k _. unfold vadd, vzero. ring.
Qed.

Variable blk : nat -> nat.

Lemma below_sum m v : e (below blk m v) = ksum m (fun i => e (iota blk i v)).
Proof.
  induction m as [|m IH]; cbn [ksum].
  - rewrite <- e_zero. apply e_ext. intros k _. reflexivity.
  - rewrite <- IH, <- e_add. apply e_ext. intros k _. unfold below, iota, vadd.
    destruct (Nat.ltb_spec (blk k) (S m)) as [H|H]; destruct (Nat.ltb_spec (blk k) m) as [H1|H1];
      destruct (Nat.eqb_spec (blk k) m) as [H2|H2]; try lia; ring.
Qed.

Theorem C22_partition_linear n v :
  (forall k, k < N -> blk k < n) -> e v = ksum n (fun i => e (iota blk i v)).
Proof.
  intros Hb. rewrite <- below_sum. apply e_ext. intros k Hk. unfold below.
  destruct (Nat.ltb_spec (blk k) n) as [H|H]; [reflexivity|]. specialize (Hb k Hk). lia.
Qed.

(* a block depends only on its own sub-function *)
Theorem C22_block_independent_linear i v v' :
  (forall k, k < N -> blk k = i -> v k = v' k) -> e (iota blk i v) = e (iota blk i v').
Proof.
  intros H. apply e_ext. intros k Hk. unfold iota.
  destruct (Nat.eqb_spec (blk k) i) as [E|E]; [auto|reflexivity].
Qed.

(* blocks of an index that owns no component vanish (None entries of the result) *)
Theorem C22_empty_block i v : (forall k, k < N -> blk k <> i) -> e (iota blk i v) = k0.
Proof.
  intros H. rewrite <- e_zero. apply e_ext. intros k Hk. unfold iota, vzero.
  destruct (Nat.eqb_spec (blk k) i) as [E|E]; [destruct (H k Hk E)|reflexivity].
Qed.
End Linear.

Section Bilinear.
Variables N1 N2 : nat.
Variable e : vec -> vec -> A.
Hypothesis e_ext1 : forall u v w, (forall k, k < N1 -> v k = w k) -> e v u = e w u.
Hypothesis e_ext2 : forall v u w, (forall k, k < N2 -> u k = w k) -> e v u = e v w.
Hypothesis e_add1 : forall u v w, e (vadd v w) u = e v u + e w u.
Hypothesis e_add2 : forall v u w, e v (vadd u w) = e v u + e v w.
Variables blk1 blk2 : nat -> nat.

Theorem C22_partition_bilinear n1 n2 v u :
  (forall k, k < N1 -> blk1 k < n1) -> (forall k, k < N2 -> blk2 k < n2) ->
  e v u = ksum n1 (fun i => ksum n2 (fun j => e (iota blk1 i v) (iota blk2 j u))).
Proof.
  intros H1 H2.
  rewrite (C22_partition_linear N1 (fun v => e v u) (e_ext1 u) (e_add1 u) blk1 n1 v H1).
  apply ksum_ext. intros i _.
  apply (C22_partition_linear N2 (fun u => e (iota blk1 i v) u)
           (e_ext2 (iota blk1 i v)) (e_add2 (iota blk1 i v)) blk2 n2 u H2).
Qed.

Theorem C22_block_independent i j v v' u u' :
  (forall k, k < N1 -> blk1 k = i -> v k = v' k) ->
  (forall k, k < N2 -> blk2 k = j -> u k = u' k) ->
  e (iota blk1 i v) (iota blk2 j u) = e (iota blk1 i v') (iota blk2 j u').
Proof.
  intros Hv Hu.
  rewrite (C22_block_independent_linear N1 (fun v => e v (iota blk2 j u)) (e_ext1 _) blk1 i v v' Hv).
  apply (C22_block_independent_linear N2 (fun u => e (iota blk1 i v') u) (e_ext2 _) blk2 j u u' Hu).
Qed.

(* --- model of the all-blocks loops of extract_blocks on MixedElement spaces (without /repo's repair):
       for pi in range(n0): for pj in range(n0): split(form, pi, pj), n0 = #sub-elements of
       arguments[0], whatever the arity and the trial space are. *)
Definition grid_sum (n0 : nat) (v u : vec) : A :=
  ksum n0 (fun i => ksum n0 (fun j => e (iota blk1 i v) (iota blk2 j u))).

Theorem C22_grid_partial n0 v u :
  (forall k, k < N1 -> blk1 k < n0) -> (forall k, k < N2 -> blk2 k < n0) ->
  grid_sum n0 v u = e v u.
Proof. intros H1 H2. symmetry. apply C22_partition_bilinear; assumption. Qed.
End Bilinear.

(* linear forms: the loop over pj does not change the block, so every block is returned n0 times *)
Section GridLinear.
Variable N : nat.
Variable e : vec -> A.
Hypothesis e_ext : forall v w, (forall k, k < N -> v k = w k) -> e v = e w.
Hypothesis e_add : forall v w, e (vadd v w) = e v + e w.
Variable blk : nat -> nat.
Definition grid_sum_linear (n0 : nat) (v : vec) : A :=
  ksum n0 (fun i => ksum n0 (fun _ => e (iota blk i v))).

Lemma ksum_const n (x : A) : ksum n (fun _ => x) = of_nat n * x.
Proof.
  induction n as [|n IH]; [cbn; ring|]. cbn [ksum]. rewrite IH, of_nat_succ. ring.
Qed.

Theorem C22_grid_linear_scaled n0 v :
  (forall k, k < N -> blk k < n0) -> grid_sum_linear n0 v = of_nat n0 * e v.
Proof.
  intros Hb. unfold grid_sum_linear.
  rewrite (ksum_ext A n0 _ (fun i => of_nat n0 * e (iota blk i v))) by (intros; apply ksum_const).
  rewrite ksum_scal. f_equal. symmetry. apply (C22_partition_linear N e e_ext e_add blk n0 v Hb).
Qed.
End GridLinear.

(* --- the as_vector that FormSplitter.argument builds denotes iota i (den level) --------------- *)
Variable env : side -> nat -> nat -> list nat -> A.
Variable D DX : nat -> A -> A.
Variable ki : A.
Notation DEN := (@den A env D DX ki).

(* entries of the vector for one sub-element with components [cs] (its multi-indices in
   np.ndindex order), flattened offset [off]:
   replace_argument = True : Indexed (new argument a) c     (or a itself for a scalar sub-element)
   replace_argument = False: Indexed (old argument) [off + position] *)
Definition entry_new (a : expr) (c : list nat) : expr :=
  match c with [] => a | _ => Indexed a (map Fixed c) end.
Definition entries_new (a : expr) (cs : list (list nat)) : list expr := map (entry_new a) cs.
Definition entries_old (obj : expr) (off len : nat) : list expr :=
  map (fun k => Indexed obj [Fixed (off + k)]) (seq 0 len).
Definition zeros (len : nat) : list expr := repeat (Zero [] []) len.

Lemma zeros_length n : length (zeros n) = n.
Proof. apply repeat_length. Qed.
Lemma zeros_nth s rho n k :
  match nth_error (zeros n) k with Some x => DEN s rho x [] | None => k0 end = k0.
Proof.
  destruct (nth_error (zeros n) k) eqn:E; [|reflexivity].
  apply nth_error_In, repeat_spec in E. subst. reflexivity.
Qed.

Lemma map_idxval_fixed rho c : map (idxval rho) (map Fixed c) = c.
Proof. induction c; cbn; congruence. Qed.

Lemma den_entry_new s rho a c : DEN s rho (entry_new a c) [] = DEN s rho a c.
Proof.
  destruct c as [|x c]; [reflexivity|]. unfold entry_new. cbn [den].
  rewrite map_idxval_fixed. reflexivity.
Qed.

(* the vector  pre ++ block ++ post  with zeros outside the block *)
Lemma den_padded s rho blk pre post k :
  DEN s rho (ListTensor (zeros pre ++ blk ++ zeros post)) [k]
  = if Nat.leb pre k then match nth_error blk (k - pre) with Some x => DEN s rho x [] | None => k0 end else k0.
Proof.
  rewrite den_ListTensor. destruct (Nat.leb_spec pre k) as [H|H].
  - rewrite nth_error_app2; rewrite zeros_length; [|exact H].
    destruct (Nat.lt_ge_cases (k - pre) (length blk)) as [H2|H2].
    + rewrite nth_error_app1 by exact H2. reflexivity.
    + rewrite nth_error_app2, (proj2 (nth_error_None blk _) H2) by exact H2. apply zeros_nth.
  - rewrite nth_error_app1 by (rewrite zeros_length; exact H). apply zeros_nth.
Qed.

Theorem C22_embedding_den_new s rho a cs pre post k :
  DEN s rho (ListTensor (zeros pre ++ entries_new a cs ++ zeros post)) [k]
  = if andb (Nat.leb pre k) (Nat.ltb k (pre + length cs))
    then DEN s rho a (nth (k - pre) cs []) else k0.
Proof.
  rewrite den_padded. unfold entries_new. rewrite nth_error_map.
  destruct (Nat.leb_spec pre k) as [H1|H1]; [cbn [andb]|reflexivity].
  destruct (Nat.ltb_spec k (pre + length cs)) as [H2|H2].
  - rewrite (nth_error_nth' cs [] (n := k - pre)) by lia. apply den_entry_new.
  - rewrite (proj2 (nth_error_None cs _)) by lia. reflexivity.
Qed.

Theorem C22_embedding_den_old s rho obj len pre post k :
  DEN s rho (ListTensor (zeros pre ++ entries_old obj pre len ++ zeros post)) [k]
  = if andb (Nat.leb pre k) (Nat.ltb k (pre + len)) then DEN s rho obj [k] else k0.
Proof.
  rewrite den_padded. unfold entries_old. rewrite nth_error_map.
  destruct (Nat.leb_spec pre k) as [H1|H1]; [cbn [andb]|reflexivity].
  destruct (Nat.ltb_spec k (pre + len)) as [H2|H2].
  - rewrite (nth_error_nth' (seq 0 len) 0 (n := k - pre)) by (rewrite seq_length; lia).
    rewrite seq_nth by lia. cbn [option_map den map idxval]. do 2 f_equal. lia.
  - rewrite (proj2 (nth_error_None (seq 0 len) _)) by (rewrite seq_length; lia). reflexivity.
Qed.

End Blocks.

(* --- refutations: the n0 x n0 grid on concrete (tiny) inputs ----------- *)
Section Refuted.
Variable A : ualg.
Add Field C22g : (kfield A).
Open Scope K_scope.

(* two scalar sub-functions; the linear form e v = v_0; v = (1, 1) *)
Theorem C22_grid_linear_refuted :
  exists (e : vec A -> A) (blk : nat -> nat) (v : vec A),
    (forall v w, e (vadd A v w) = e v + e w) /\ (forall k, k < 2 -> blk k < 2) /\
    grid_sum_linear A e blk 2 v <> e v.
Proof.
  exists (fun v => v 0), (fun k => k), (fun _ => k1). split; [reflexivity|]. split; [intros; lia|].
  unfold grid_sum_linear, iota. cbn. intros E.
  apply (F_1_neq_0 (kfield A)).
  transitivity ((k0 + (k0 + k1 + k1) + (k0 + k0 + k0)) - k1 : A); [ring | rewrite E; ring].
Qed.

(* test space with 2, trial space with 3 scalar sub-functions; e v u = v_0 * u_2; the 2 x 2 grid
   misses block (0, 2) *)
Theorem C22_grid_trial_refuted :
  exists (e : vec A -> vec A -> A) (blk1 blk2 : nat -> nat) (v u : vec A),
    (forall u v w, e (vadd A v w) u = e v u + e w u) /\ (forall v u w, e v (vadd A u w) = e v u + e v w) /\
    (forall k, k < 2 -> blk1 k < 2) /\ (forall k, k < 3 -> blk2 k < 3) /\
    grid_sum A e blk1 blk2 2 v u <> e v u.
Proof.
  exists (fun v u => v 0 * u 2), (fun k => k), (fun k => k), (fun _ => k1), (fun _ => k1).
  repeat split; try (intros; unfold vadd; ring); try (intros; lia).
  unfold grid_sum, iota. cbn. intros E.
  apply (F_1_neq_0 (kfield A)).
  transitivity (k1 * k1 : A); [ring | rewrite <- E; ring].
Qed.
End Refuted.

Print Assumptions C22_partition_linear.
Print Assumptions C22_partition_bilinear.
Print Assumptions C22_block_independent.
Print Assumptions C22_empty_block.
Print Assumptions C22_grid_partial.
Print Assumptions C22_grid_linear_scaled.
Print Assumptions C22_embedding_den_new.
Print Assumptions C22_embedding_den_old.
Print Assumptions C22_grid_linear_refuted.
Print Assumptions C22_grid_trial_refuted.
