(* C16 - the tactics of the generated obligations coq/Gen/C16_t2_*.v.

   An obligation, once the algebra's operations are computed ([norm_goal]), is an identity between
   polynomial expressions over atoms, with the unary symbols conj, re, im, abs, fn f, Dx j, DX j
   applied to sub-expressions and with zeros left by the substitution u := 0.  It is closed by
   [ring]/[field] after the laws of 0 and of conj/re/im (Section hypotheses of the generated files)
   have been used where they are needed, and after equal arguments of a unary symbol have been made
   syntactically equal.

   The generated files state everything over Section variables, so the tactics take the operations,
   the unary symbols and the proofs of the laws as arguments, under the names they have in
   coqgen.HEADER and py/C16_lib.py.  [close] receives them all and hands the others what they need,
   already applied ([rop], [nf], [pk], [sa] below). *)
Require Import UFLV.Core.Tac.

(* the premises that denominators are not 0 are normalised like the goal, but only when [field]
   is reached: most obligations are closed before *)
Ltac nz_hyps := repeat match goal with H : _ <> _ |- _ => progress norm_hyp H end.
Ltac fin3 char0 := first [ reflexivity | ring | nz_hyps; field; nz_solve char0 ].

Ltac ring_op z0 z1 add mul sub opp div inv X :=
  lazymatch X with
  | add _ _ => idtac | mul _ _ => idtac | sub _ _ => idtac | opp _ => idtac
  | div _ _ => idtac | inv _ => idtac | z0 => idtac | z1 => idtac
  end.

(* [pick ... T seen k]: call [k F X] on an application [F X] of a unary symbol in T that is not in
   the nested pair [seen]; the next one if [k] fails *)
Ltac unseen T seen :=
  lazymatch seen with (T, _) => fail | (_, ?rest) => unseen T rest | _ => idtac end.
Ltac pick fn abs conj Dx DX re im T seen k :=
  match T with
  | context [fn ?f ?X] => unseen (fn f X) seen; k (fn f) X
  | context [abs ?X] => unseen (abs X) seen; k abs X
  | context [conj ?X] => unseen (conj X) seen; k conj X
  | context [Dx ?j ?X] => unseen (Dx j X) seen; k (Dx j) X
  | context [DX ?j ?X] => unseen (DX j X) seen; k (DX j) X
  | context [re ?X] => unseen (re X) seen; k re X
  | context [im ?X] => unseen (im X) seen; k im X
  end.

(* [canon pk sa tt], with [pk] = [pick] on the symbols and [sa] = [same_arg] on the operations:
   arguments of one unary symbol that [ring] (with a quotient, [field]) proves equal are made
   syntactically equal, so that ring sees one atom; the constructors reorder the factors under conj.
   Applications are visited innermost first, so that an argument is final when it is compared; each
   is compared once with the representatives in [reps], and replaced by the first equal one or added
   to them.  Two arguments neither of which is built by a ring operation are different atoms and are
   not compared.  ([unify_args] of Core/Tac.v gives the same result by retrying all pairs of
   occurrences after every replacement.)  [canon] knows the symbols and operations only through [pk]
   and [sa], so any generator can call it with its own Section variables, as [close] does here. *)
Ltac same_arg rop div inv char0 X Y :=
  first [ rop X | rop Y ];
  first [ ring
        | lazymatch constr:((X, Y)) with context [div _ _] => idtac | context [inv _] => idtac end;
          field; nz_solve char0 ].
Ltac merge sa F X reps :=
  lazymatch reps with
  | (F ?Y, ?rest) =>
      first [ let E := fresh in assert (E : F X = F Y) by (f_equal; sa X Y); rewrite E; clear E
            | merge sa F X rest ]
  | (_, ?rest) => merge sa F X rest
  end.
Ltac canon pk sa reps :=
  try (lazymatch goal with |- ?G =>
    pk G reps ltac:(fun F X =>
      tryif pk X reps ltac:(fun _ _ => idtac) then fail else
      first [ merge sa F X reps; canon pk sa reps
            | let r := constr:((F X, reps)) in canon pk sa r ])
  end).
Ltac finish pk sa char0 := first [ fin3 char0 | canon pk sa tt; fin3 char0 ].

(* The laws of 0 and of conj/re/im are used only where they matter: on the part of the goal that
   survives when the zeros absorbed by add, mul and opp are dropped.  [nf t] is t without them, unary
   symbols left closed ([with_nf] makes it for given operations; it runs on every node, so it is a
   local function that passes nothing but the term); [live] is the goal seen that way.  The goal
   itself is not replaced by its [nf], since ring disposes of the zeros between ring operations
   anyway: only the arguments of the surviving unary symbols and quotients, which ring does not look
   into, are replaced by their [nf] ([s_arg], [s_quot]), each in one step proved by ring. *)
Ltac with_nf z0 add mul sub opp k :=
  let rec nf t :=
    lazymatch t with
    | add ?a ?b =>
        let a' := nf a in let b' := nf b in
        lazymatch a' with z0 => b' | _ => lazymatch b' with z0 => a' | _ => constr:(add a' b') end end
    | mul ?a ?b =>
        let a' := nf a in
        lazymatch a' with z0 => z0 | _ =>
          let b' := nf b in lazymatch b' with z0 => z0 | _ => constr:(mul a' b') end end
    | opp ?a => let a' := nf a in lazymatch a' with z0 => z0 | _ => constr:(opp a') end
    | sub ?a ?b => let a' := nf a in let b' := nf b in constr:(sub a' b')
    | _ => t
    end in
  k nf.
Ltac live nf :=
  lazymatch goal with |- ?L = ?R => let L' := nf L in let R' := nf R in constr:((L', R')) end.
Ltac s_arg rop nf F X :=
  rop X; let X' := nf X in
  tryif constr_eq X X' then fail else
    (let E := fresh in assert (E : F X = F X') by (f_equal; ring); rewrite E; clear E).
Ltac s_quot div inv rop nf V :=
  match V with
  | context [div ?X ?Y] =>
      let X' := nf X in let Y' := nf Y in
      tryif (constr_eq X X'; constr_eq Y Y') then fail else
        (let E := fresh in assert (E : div X Y = div X' Y') by (f_equal; ring); rewrite E; clear E)
  | context [inv ?X] => s_arg rop nf inv X
  end.
(* a unary symbol applied to 0 *)
Ltac z_step z0 conj Dx DX re im Dx_zero DX_zero conj_zero re_zero im_zero V :=
  match V with
  | context [?f z0] =>
      lazymatch f with
      | Dx ?j => rewrite (Dx_zero j) | DX ?j => rewrite (DX_zero j)
      | conj => rewrite conj_zero | re => rewrite re_zero | im => rewrite im_zero
      end
  end.
(* conj, re, im pushed through one ring operation, all instances *)
Ltac push_step z1 add mul sub opp div conj re im
               conj_one conj_add conj_mul conj_sub conj_opp conj_div re_add im_add V :=
  match V with
  | context [conj ?X] =>
      lazymatch X with
      | add _ _ => rewrite !conj_add | mul _ _ => rewrite !conj_mul | sub _ _ => rewrite !conj_sub
      | opp _ => rewrite !conj_opp | div _ _ => rewrite !conj_div | z1 => rewrite conj_one
      end
  | context [re (add _ _)] => rewrite !re_add
  | context [im (add _ _)] => rewrite !im_add
  end.
(* zeros under any other symbol (cond_, pow, ...), one instance at a time: the last resort *)
Ltac simp0 z0 add mul opp :=
  match goal with
  | |- context [mul z0 ?x] => replace (mul z0 x) with z0 by ring
  | |- context [mul ?x z0] => replace (mul x z0) with z0 by ring
  | |- context [add z0 ?x] => replace (add z0 x) with x by ring
  | |- context [add ?x z0] => replace (add x z0) with x by ring
  | |- context [opp z0] => replace (opp z0) with z0 by ring
  end.

(* [close m ...]: m = 0 for the plain obligations; 1 for the adjoint, where often only
   Conj(Conj x) -> x of the constructor has to be undone and then no other law is to be used;
   2 for forms with grad of a compound, where Dx is first distributed by its additivity and Leibniz
   laws.
   [zl], the laws, in this order: the arguments are cleaned of zeros before a law is looked for, a
   symbol applied to 0 goes before anything is pushed (the zero may absorb the rest), and
   Conj(Conj x) -> x comes last, when nothing is left to push.  The order decides which laws a proof
   uses, hence which Section hypotheses the closed lemma keeps. *)
Ltac close m z0 z1 add mul sub opp div inv fn abs conj Dx DX re im
           Dx_zero DX_zero conj_zero re_zero im_zero
           conj_one conj_add conj_mul conj_sub conj_opp conj_div conj_invol re_add im_add
           Dx_add Dx_mul char0 :=
  let rop := ltac:(fun X => ring_op z0 z1 add mul sub opp div inv X) in
  with_nf z0 add mul sub opp ltac:(fun nf =>
  let pk := ltac:(fun T seen k => pick fn abs conj Dx DX re im T seen k) in
  let sa := ltac:(fun X Y => same_arg rop div inv char0 X Y) in
  let zl := ltac:(idtac;
    repeat (let V := live nf in
            first [ pk V tt ltac:(fun F X => s_arg rop nf F X) | s_quot div inv rop nf V
                  | z_step z0 conj Dx DX re im Dx_zero DX_zero conj_zero re_zero im_zero V
                  | push_step z1 add mul sub opp div conj re im
                              conj_one conj_add conj_mul conj_sub conj_opp conj_div re_add im_add V
                  | lazymatch V with context [conj (conj _)] => rewrite !conj_invol end ])) in
  let lf := ltac:(idtac;
    first [ zl; finish pk sa char0 | repeat simp0 z0 add mul opp; zl; finish pk sa char0 ]) in
  norm_goal;
  lazymatch m with
  | 0 => first [ reflexivity | lf ]
  | 1 => first [ reflexivity | rewrite ?conj_invol; finish pk sa char0 | lf ]
  | 2 => repeat first [ rewrite Dx_add | rewrite Dx_mul ]; lf
  end).
