(* C10: the unbounded theorems.  For every UFL algebra, environment, valuation and component:
     den_ext_on            the value of e depends on the valuation only through dv e
     C10_irep_den          substitution lemma for the (non capture avoiding) IndexReplacer:
                           safe m e -> den (irep m e) rho = den e (rho o m)
     C10_remove_partial    rct_safe e -> den (rct e) = den e
     C10_renumber          renumbering by any map that is safe for e (in particular any injective
                           one) preserves the value up to the renamed valuation
   all at the components c with [rk e (length c)] (e in the fragment that survives algebra lowering).
   Each is the value half of a statement [related f rho' rho e] (C10_lemmas), whose other half says that
   the pass keeps the rank typing. *)
Require Import UFLV.Core.Facts UFLV.Props.C10_model UFLV.Props.C10_lemmas.
Import ListNotations.

Lemma mapM_id (l : list expr) : mapM Some l = Some l.
Proof. induction l as [|x t IH]; [reflexivity|]. rewrite mapM_cons, IH. reflexivity. Qed.
Lemma cmapM_id c : cmapM Some c = Some c.
Proof. induction c; cbn; rewrite ?IHc1, ?IHc2, ?IHc; reflexivity. Qed.
Lemma emapM_id e : emapM Some e = Some e.
Proof.
  destruct e; cbn; try reflexivity.
  - destruct (is_lit e2); reflexivity.
  - rewrite mapM_id. reflexivity.
  - rewrite cmapM_id. reflexivity.
Qed.

Lemma upds_at (F G : nat -> nat) ix c j : F j = G j -> upds F ix c j = upds G ix c j.
Proof.
  revert F G c; induction ix as [|[i d] t IH]; intros F G c H; cbn; [exact H|].
  destruct c as [|k c']; [exact H|]. apply IH. cbn. destruct (Nat.eqb j i); auto.
Qed.

Definition subv (m : imap) (rho : nat -> nat) : nat -> nat := fun i => idxval rho (sub m (Free i)).
Lemma idxval_sub m rho x : idxval rho (sub m x) = idxval (subv m rho) x.
Proof. destruct x; reflexivity. Qed.

(* a binder i that m handles correctly within its scope may be valued before or after renaming *)
Lemma binder_ok_upd m scope i i' rho k j :
  binder_ok m scope i = true -> sub_binder m i = Some i' -> In j scope ->
  subv m (upd rho i' k) j = upd (subv m rho) i k j.
Proof.
  unfold binder_ok, sub_binder, subv. intros H Ei Hj. bsplit.
  destruct (sub m (Free i)) as [n|i2] eqn:Es; [discriminate|]. injection Ei as <-.
  rewrite forallb_forall in H0. specialize (H0 j Hj). cbn [upd].
  destruct (Nat.eqb_spec j i) as [->|Hne].
  - rewrite Es. cbn. rewrite Nat.eqb_refl. reflexivity.
  - destruct (sub m (Free j)) as [n|j']; [reflexivity|]. cbn in H0 |- *.
    destruct (Nat.eqb j' i2); [discriminate|reflexivity].
Qed.

Lemma upds_sub m scope ix ix' :
  Forall2 (fun p q => bind (sub_binder m (fst p)) (fun j => Some (j, snd p)) = Some q) ix ix' ->
  (forall i, In i (map fst ix) -> binder_ok m scope i = true) ->
  forall c rho j, In j scope -> subv m (upds rho ix' c) j = upds (subv m rho) ix c j.
Proof.
  induction 1 as [|[i d] q t t' E HF IH]; intros Hok c rho j Hj; [reflexivity|].
  apply bind1_inv in E as (i' & Ei & ->). destruct c as [|k c']; [reflexivity|]. cbn [upds].
  rewrite IH by (auto; intros i0 H0; apply Hok; right; exact H0). apply upds_at.
  apply (binder_ok_upd m scope); [apply Hok; left; reflexivity|exact Ei|exact Hj].
Qed.

Lemma lookup_app m1 m2 j :
  lookup (m1 ++ m2) j = match lookup m1 j with Some y => Some y | None => lookup m2 j end.
Proof.
  induction m1 as [|[i x] t IH]; cbn; [reflexivity|]. destruct (Nat.eqb j i); [reflexivity|exact IH].
Qed.
Lemma upds_mkmap rho0 : forall ix mi rho j,
  upds rho ix (map (idxval rho0) mi) j =
  match lookup (mkmap ix mi) j with Some y => idxval rho0 y | None => rho j end.
Proof.
  induction ix as [|[i d] t IH]; intros mi rho j; [reflexivity|].
  destruct mi as [|x mi']; [reflexivity|]. cbn [map upds mkmap]. rewrite IH, lookup_app.
  destruct (lookup (mkmap t mi') j); [reflexivity|]. cbn. destruct (Nat.eqb j i); reflexivity.
Qed.

(* [rct] looks at the head of the rewritten operand only to tell a ComponentTensor from the rest *)
Definition is_ct (e : expr) : bool := match e with ComponentTensor _ _ => true | _ => false end.
Lemma ct_match {X} a (F : expr -> list (nat * nat) -> X) (G : X) :
  is_ct a = false -> match a with ComponentTensor b ix => F b ix | _ => G end = G.
Proof. destruct a; try reflexivity; discriminate. Qed.

Section Thm.
Variable A : ualg.
Variable env : side -> nat -> nat -> list nat -> A.
Variables D DX : nat -> A -> A.
Variable ki : A.
Notation DEN := (@den A env D DX ki).
Notation REL := (related A env D DX ki).

Lemma den_ext_related e : forall rho rho',
  (forall j, In j (dv e) -> rho j = rho' j) -> REL Some rho rho' e.
Proof.
  induction e as [e IH] using children_ind. intros rho rho' Hag a' E. injection E as <-.
  destruct (is_plain e) eqn:Hp.
  - apply (emapM_congr A env D DX ki Some e rho rho' Hp); [|apply emapM_id].
    intros a Ha. apply (IH a Ha). intros j Hj. apply Hag.
    rewrite (dv_plain e Hp), efold_app. apply in_flat_map. exists a; auto.
  - intros k Hr. split; [exact Hr|]. intros s c L.
    destruct e; try discriminate Hp; cbn [dv efold] in Hag; cbn [rk] in Hr; cbn [den].
    + reflexivity.
    + apply andb_prop in Hr as [_ Hr].
      replace (map (idxval rho) mi) with (map (idxval rho') mi).
      2:{ apply map_ext_in. intros [n|i] Hi; [reflexivity|]. symmetry. apply Hag, in_or_app. right.
          apply in_flat_map. exists (Free i); cbn; auto. }
      refine (proj2 (IH e (or_introl eq_refl) rho rho' _ e eq_refl _ Hr) s _ (map_length _ _)).
      intros j Hj. apply Hag, in_or_app; auto.
    + apply ksum_ext. intros n _.
      refine (proj2 (IH e (or_introl eq_refl) (upd rho i n) (upd rho' i n) _ e eq_refl k Hr) s c L).
      intros j Hj. cbn. destruct (Nat.eqb j i); [reflexivity|]. apply Hag. rewrite app_nil_r. exact Hj.
    + apply andb_prop in Hr as [_ Hr].
      refine (proj2 (IH e (or_introl eq_refl) (upds rho ix c) (upds rho' ix c) _ e eq_refl 0 Hr) s [] eq_refl).
      intros j Hj. apply upds_at, Hag. rewrite app_nil_r. exact Hj.
Qed.

Theorem den_ext_on e rho rho' :
  (forall j, In j (dv e) -> rho j = rho' j) ->
  forall s c, rk e (length c) = true -> DEN s rho e c = DEN s rho' e c.
Proof. intros Hag s c Hr. apply (proj2 (den_ext_related e rho rho' Hag e eq_refl _ Hr) s c eq_refl). Qed.

Lemma irep_related m e : forall rho, safe m e = true -> REL (irep m) rho (subv m rho) e.
Proof.
  induction e as [e IH] using children_ind. intros rho Hsafe e' Hm.
  destruct (is_plain e) eqn:Hp.
  - rewrite irep_plain in Hm by exact Hp. rewrite safe_plain, efold_andb, forallb_forall in Hsafe by exact Hp.
    apply (emapM_congr A env D DX ki (irep m) e rho (subv m rho) Hp); [|exact Hm].
    intros a Ha. apply (IH a Ha), Hsafe, Ha.
  - intros k Hr.
    destruct e; try discriminate Hp; cbn [irep] in Hm; cbn [safe efold] in Hsafe; cbn [rk] in Hr.
    + unfold zero_sub in Hm. destruct (existsb _ fi); injection Hm as <-; (split; [exact Hr|reflexivity]).
    + (* Indexed *)
      apply bind1_inv in Hm as (a' & E & ->). rewrite andb_true_r in Hsafe. apply andb_prop in Hr as [Hk Hr].
      destruct (IH e (or_introl eq_refl) rho Hsafe a' E _ Hr) as [Ra Va].
      split; [cbn [rk]; rewrite map_length; bsplit; assumption|]. intros s c L. cbn [den].
      rewrite map_map, (map_ext _ _ (idxval_sub m rho)). apply Va, map_length.
    + (* IndexSum *)
      apply bind_inv in Hm as (i' & Ei & Hm). apply bind1_inv in Hm as (a' & E & ->).
      apply andb_prop in Hsafe as [Hb Hsafe].
      split; [apply (IH e (or_introl eq_refl) rho Hsafe a' E k Hr)|]. intros s c L. cbn [den].
      apply ksum_ext. intros n _.
      rewrite (proj2 (IH e (or_introl eq_refl) (upd rho i' n) Hsafe a' E k Hr) s c L).
      apply den_ext_on; [|rewrite L; exact Hr]. intros j Hj. apply (binder_ok_upd m (dv e)); assumption.
    + (* ComponentTensor *)
      apply bind_inv in Hm as (ix' & Ex & Hm). apply bind1_inv in Hm as (a' & E & ->).
      apply mapM_Forall2 in Ex. apply andb_prop in Hsafe as [Hb Hsafe]. rewrite forallb_forall in Hb.
      apply andb_prop in Hr as [Hk Hr]. rewrite (Forall2_length Ex) in Hk.
      split; [cbn [rk]; bsplit; [exact Hk|apply (IH e (or_introl eq_refl) rho Hsafe a' E 0 Hr)]|].
      intros s c L. cbn [den].
      rewrite (proj2 (IH e (or_introl eq_refl) (upds rho ix' c) Hsafe a' E 0 Hr) s [] eq_refl).
      apply den_ext_on; [|exact Hr]. intros j Hj.
      apply (upds_sub m (map fst ix ++ dv e) ix ix' Ex Hb), in_or_app. right. exact Hj.
Qed.

Theorem C10_irep_den m e e' : safe m e = true -> irep m e = Some e' ->
  forall s rho c, rk e (length c) = true -> DEN s rho e' c = DEN s (subv m rho) e c.
Proof. intros Hs Hm s rho c Hr. apply (proj2 (irep_related m e rho Hs e' Hm _ Hr) s c eq_refl). Qed.

Lemma rct_related e : rct_safe e = true -> forall rho, REL rct rho rho e.
Proof.
  induction e as [e IH] using children_ind. intros Hsafe rho e' Hm.
  destruct (is_plain e) eqn:Hp.
  - rewrite rct_plain in Hm by exact Hp.
    rewrite rct_safe_plain, efold_andb, forallb_forall in Hsafe by exact Hp.
    apply (emapM_congr A env D DX ki rct e rho rho Hp); [|exact Hm].
    intros a Ha. apply (IH a Ha), Hsafe, Ha.
  - intros k Hr.
    destruct e; try discriminate Hp; cbn [rct emapM] in Hm; cbn [rct_safe efold] in Hsafe;
      cbn [rk] in Hr; rewrite ?andb_true_r in Hsafe.
    + injection Hm as <-. split; [exact Hr|reflexivity].
    + (* Indexed: the operand may have become a ComponentTensor, which is then substituted *)
      apply bind_inv in Hm as (a' & E & Hm). rewrite E in Hsafe. apply andb_prop in Hsafe as [Hsa Hsb].
      apply andb_prop in Hr as [Hk Hr].
      pose proof (fun rho => IH e (or_introl eq_refl) Hsa rho a' E _ Hr) as V.
      apply Nat.eqb_eq in Hk as ->. destruct (is_ct a') eqn:Ect.
      * destruct a'; try discriminate Ect.
        destruct (Nat.eqb (length ix) (length mi)); [|discriminate].
        destruct (V rho) as [Ra _]. cbn [rk] in Ra. apply andb_prop in Ra as [_ Ra].
        destruct (irep_related (mkmap ix mi) a' rho Hsb e' Hm 0 Ra) as [Re Ve].
        split; [exact Re|]. intros s [|] L; [|discriminate L].
        rewrite (Ve s [] eq_refl). cbn [den].
        rewrite <- (proj2 (V rho) s (map (idxval rho) mi) (map_length _ _)). cbn [den].
        apply den_ext_on; [|exact Ra]. intros j _. unfold subv, sub. rewrite upds_mkmap.
        destruct (lookup (mkmap ix mi) j); reflexivity.
      * rewrite ct_match in Hm by exact Ect. injection Hm as <-.
        split; [cbn [rk]; bsplit; [reflexivity|apply (V rho)]|]. intros s c L. cbn [den].
        apply (V rho), map_length.
    + (* IndexSum *)
      apply bind1_inv in Hm as (a' & E & ->).
      split; [apply (IH e (or_introl eq_refl) Hsafe rho a' E k Hr)|]. intros s c L. cbn [den].
      apply ksum_ext. intros n _. apply (IH e (or_introl eq_refl) Hsafe (upd rho i n) a' E k Hr), L.
    + (* ComponentTensor *)
      apply bind1_inv in Hm as (a' & E & ->). apply andb_prop in Hr as [Hk Hr].
      split; [cbn [rk]; bsplit; [exact Hk|apply (IH e (or_introl eq_refl) Hsafe rho a' E 0 Hr)]|].
      intros s c L. cbn [den]. apply (IH e (or_introl eq_refl) Hsafe (upds rho ix c) a' E 0 Hr). reflexivity.
Qed.

(* remove_component_tensors preserves the value of every valid component, for every expression of
   the fragment on which all the index substitutions it performs are capture free *)
Theorem C10_remove_partial e e' : rct_safe e = true -> rct e = Some e' ->
  forall s rho c, rk e (length c) = true -> DEN s rho e' c = DEN s rho e c.
Proof. intros Hs Hm s rho c Hr. apply (proj2 (rct_related e Hs rho e' Hm _ Hr) s c eq_refl). Qed.

(* renumber_indices = irep with the relabelling map m: for every m that is safe for e (every
   injective relabelling is) the value is preserved up to the renamed valuation *)
Theorem C10_renumber m e e' : safe m e = true -> irep m e = Some e' ->
  forall s rho c, rk e (length c) = true ->
  DEN s rho e' c = DEN s (fun i => idxval rho (sub m (Free i))) e c.
Proof. exact (C10_irep_den m e e'). Qed.

End Thm.

Print Assumptions den_ext_on.
Print Assumptions C10_irep_den.
Print Assumptions C10_remove_partial.
Print Assumptions C10_renumber.
