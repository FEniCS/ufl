(* C19 - handler resolution of MultiFunction.__init__ / Transformer.__init__:
     for c in classobject.mro(): handler_name = c._ufl_handler_name_ (default "ufl_type");
                                 if hasattr(self, handler_name): table[typecode] = handler_name; break
   Handler names are binary numbers (N); a class is given by the handler names along its mro (own name first,
   classes outside the UFL hierarchy contribute the default name); an algorithm class by the set of
   handler names it defines.  Theorems hold for EVERY mro list and EVERY handler set. *)
Require Import List NArith Bool.
Import ListNotations.

Definition resolve (has : N -> bool) (mro : list N) : option N := find has mro.

(* the selected handler is the one of the NEAREST class in the mro that defines one *)
Theorem C19_dispatch : forall has mro h,
  resolve has mro = Some h <->
  exists pre post, mro = pre ++ h :: post /\ has h = true /\ forall x, In x pre -> has x = false.
Proof.
  intros has. induction mro as [|a r IH]; intros h; simpl.
  - split; [discriminate|]. intros (pre & post & H & _). destruct pre; discriminate.
  - destruct (has a) eqn:Ha.
    + split.
      * intros H; inversion H; subst. exists [], r. simpl. repeat split; auto. intros x [].
      * intros (pre & post & Hm & Hh & Hpre). destruct pre as [|b pre]; simpl in Hm; inversion Hm; subst; auto.
        rewrite Hpre in Ha; [discriminate|simpl; auto].
    + rewrite IH. split.
      * intros (pre & post & -> & Hh & Hpre). exists (a :: pre), post. simpl. repeat split; auto.
        intros x [<-|Hx]; auto.
      * intros (pre & post & Hm & Hh & Hpre). destruct pre as [|b pre]; simpl in Hm; inversion Hm; subst.
        -- congruence.
        -- exists pre, post. repeat split; auto. intros x Hx. apply Hpre. simpl; auto.
Qed.

Theorem C19_dispatch_none : forall has mro,
  resolve has mro = None <-> forall x, In x mro -> has x = false.
Proof.
  intros has. induction mro as [|a r IH]; simpl.
  - split; auto. intros _ x [].
  - destruct (has a) eqn:Ha.
    + split; [discriminate|]. intros H. rewrite (H a) in Ha; [discriminate|auto].
    + rewrite IH. split; intros H x; [intros [<-|Hx]; auto|intros Hx; apply H; auto].
Qed.

(* every algorithm object has the default handler, so resolution never fails on an mro that ends in it *)
Corollary C19_dispatch_total : forall has mro dflt, has dflt = true -> In dflt mro ->
  exists h, resolve has mro = Some h.
Proof.
  intros has mro dflt Hd Hin. destruct (resolve has mro) eqn:E; eauto.
  rewrite C19_dispatch_none in E. rewrite (E dflt Hin) in Hd. discriminate.
Qed.

(* ---- single-inheritance view: a forest given by a parent function ---- *)
Section Forest.
Variable parent : nat -> option nat.     (* class -> nearest UFL base class *)
Variable name : nat -> N.                (* class -> its handler name *)
Variable dflt : N.                       (* "ufl_type" *)
Variable has : N -> bool.

Fixpoint chain (fuel : nat) (c : nat) : list N :=
  match fuel with
  | 0 => [dflt]
  | S f => name c :: match parent c with Some p => chain f p | None => [dflt] end
  end.

(* walk up the ancestors until one defines a handler *)
Fixpoint nearest (fuel : nat) (c : nat) : option N :=
  match fuel with
  | 0 => if has dflt then Some dflt else None
  | S f => if has (name c) then Some (name c)
           else match parent c with
                | Some p => nearest f p
                | None => if has dflt then Some dflt else None
                end
  end.

Theorem C19_dispatch_forest : forall fuel c, resolve has (chain fuel c) = nearest fuel c.
Proof.
  induction fuel; intros c; simpl.
  - destruct (has dflt); reflexivity.
  - destruct (has (name c)); auto. destruct (parent c); auto.
Qed.
End Forest.

(* membership in a handler-name list *)
Definition hasl (l : list N) (x : N) : bool := existsb (N.eqb x) l.

Lemma hasl_In : forall l x, hasl l x = true <-> In x l.
Proof.
  intros. unfold hasl. rewrite existsb_exists. split.
  - intros (y & Hy & He). apply N.eqb_eq in He. subst; auto.
  - intros H. exists x. split; auto. apply N.eqb_refl.
Qed.

(* cut the mro after the first default entry (every algorithm object defines the default) *)
Fixpoint upto (d : N) (l : list N) : list N :=
  match l with
  | [] => []
  | x :: r => if N.eqb x d then [x] else x :: upto d r
  end.

Lemma resolve_upto : forall has d l, has d = true -> resolve has (upto d l) = resolve has l.
Proof.
  intros has d. induction l; simpl; intros; auto.
  destruct (N.eqb a d) eqn:E; simpl.
  - apply N.eqb_eq in E. subst. rewrite H. reflexivity.
  - destruct (has a); auto.
Qed.

Print Assumptions C19_dispatch.
Print Assumptions C19_dispatch_forest.
