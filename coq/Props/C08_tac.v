(* C08 - the tactic of the generated push-forward obligations in coq/Gen/C08_t2_*.v.  [div], [char0] and
   the tactic [close] of coqgen.HEADER belong to the generated Section and are passed as arguments. *)
Require Import UFLV.Core.Tac.

(* J, K and detJ are unrelated symbols, so an obligation without a division is a ring identity and one
   with a division needs field, never both: ring is not tried on the latter, where it fails only after
   reifying the whole goal.  The side conditions of field are detJ <> 0, a hypothesis, and 1 <> 0 for
   the denominator of the literal 1/1, which is [char0 1]. *)
Ltac close_pf div char0 close :=
  norm_goal;
  first [ reflexivity
        | lazymatch goal with |- context [div _ _] => fail | _ => ring end
        | field; repeat split; first [ assumption | exact (char0 1%positive) | nz_solve char0 ]
        | close ].
