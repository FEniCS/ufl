(* C17 - Restriction propagation preserves two-sided integrands.  Hand-written part.

   MODEL (of ufl/algorithms/apply_restrictions.py, RestrictionPropagator):
     [apply_rule]   the four reusable rules _ignore_restriction / _require_restriction /
                    _default_restricted / _opposite as functions of (default restriction of the
                    domain [dr], current restriction [cur]); [dr = None] is
                    default_restrictions=None ("just propagate"), [dr = Some r] is
                    default_restrictions[domain] = r;
     [resolve]      the rule of a terminal: the table kind -> handler is a PARAMETER (it is
                    extracted from the source into coq/Gen/C17_table.v on every run), the
                    coefficient rule asks [cont id] (element in H1), the facet_normal rule asks
                    [affine_nm] (degree <= 1, H1, gdim = tdim);
     [propagate]    the two-level traversal: operators rebuild from propagated operands
                    (reuse_if_untouched), Variable is stripped, Grad is given the
                    _require_restriction rule as a whole, ReferenceValue follows its terminal, a
                    Restricted node inside a restriction is an error, otherwise it switches to
                    the propagator of its side.  Compound tensor algebra and div/curl/nabla_grad
                    (removed by apply_algebra_lowering before this pass) are Error EUnsupported.
   THEOREMS (all expressions, all environments, every UFL algebra, any table with the stated
   properties):
     [C17_value]    propagate cur e = OK e' -> den e' = den e (two-sided), under the continuity
                    laws: terminals the table ignores / default-restricts are side independent,
                    terminals it flips satisfy  value(-) = - value(+)
     [C17_value_inside]  the same below a restriction: the value no longer depends on the outer side
     [C17_once]     with a default restriction: in e' every terminal of an ignored class is under
                    no restriction, every other terminal (and every Grad) under exactly one,
                    placed directly on it
     [C17_propagated]  without default restrictions (just propagate): every Restricted node of e'
                    sits directly on a non-ignored terminal, a Grad of terminals or a ReferenceValue
     [C17_rejects]  a restriction inside a restriction, and (with a default restriction) an
                    unrestricted terminal of a class that must be restricted, give Error
     [C17_defaults_off_accepts_missing]  (refuted half) with default_restrictions=None a missing
                    restriction is NOT rejected: propagate returns the integrand unchanged. *)
Require Import UFLV.Core.Facts UFLV.Props.C21_ind.
Require Import Lia.

Inductive handler := HIgnore | HRequire | HDefault | HOpposite | HCoefficient | HFacetNormal | HMissing.
Inductive err := EDouble | EMissing | EInconsistent | ENoRule | EUnsupported | EIllFormed.
Inductive result (X : Type) := OK (x : X) | Error (e : err).
Arguments OK {X}. Arguments Error {X}.

Definition rmap1 {X Y} (f : X -> Y) (r : result X) : result Y :=
  match r with OK x => OK (f x) | Error e => Error e end.
Definition rmap2 {X Y Z} (f : X -> Y -> Z) (r1 : result X) (r2 : result Y) : result Z :=
  match r1, r2 with
  | OK x, OK y => OK (f x y)
  | Error e, _ => Error e
  | _, Error e => Error e
  end.
Definition rmap3 {X Y Z W} (f : X -> Y -> Z -> W) (r1 : result X) (r2 : result Y) (r3 : result Z) : result W :=
  match r1, r2, r3 with
  | OK x, OK y, OK z => OK (f x y z)
  | Error e, _, _ => Error e
  | _, Error e, _ => Error e
  | _, _, Error e => Error e
  end.

Definition is_err {X} (r : result X) : Prop := exists e, r = Error e.

Lemma rmap1_err {X Y} (f : X -> Y) r : is_err r -> is_err (rmap1 f r).
Proof. intros [e ->]. exists e. reflexivity. Qed.
(* an operand flagged by a boolean test is an error, so the rebuilt node is one *)
Lemma rmap2_err {X Y Z} (f : X -> Y -> Z) r1 r2 (b1 b2 : bool) :
  b1 || b2 = true -> (b1 = true -> is_err r1) -> (b2 = true -> is_err r2) -> is_err (rmap2 f r1 r2).
Proof.
  intros Hb H1 H2.
  apply orb_prop in Hb as [Hb|Hb]; [destruct (H1 Hb) as [e ->] | destruct (H2 Hb) as [e ->], r1];
    eexists; reflexivity.
Qed.
Lemma rmap3_err {X Y Z W} (f : X -> Y -> Z -> W) r1 r2 r3 (b1 b2 b3 : bool) :
  b1 || b2 || b3 = true -> (b1 = true -> is_err r1) -> (b2 = true -> is_err r2) ->
  (b3 = true -> is_err r3) -> is_err (rmap3 f r1 r2 r3).
Proof.
  intros Hb H1 H2 H3. apply orb_prop in Hb as [Hb|Hb]; [apply orb_prop in Hb as [Hb|Hb]|];
    [destruct (H1 Hb) as [e ->] | destruct (H2 Hb) as [e ->], r1 | destruct (H3 Hb) as [e ->], r1, r2];
    eexists; reflexivity.
Qed.

Definition is_ign (h : handler) : bool := match h with HIgnore => true | _ => false end.
Definition is_opp (h : handler) : bool := match h with HOpposite => true | _ => false end.
Definition is_some {X} (o : option X) : bool := match o with Some _ => true | None => false end.

(* exponent of a Power that [den] reads syntactically *)
Definition pow_ok (b : expr) : bool :=
  match b with Vari _ _ | Restricted _ _ => false | _ => true end.

(* operands of Grad after apply_derivatives: (gradients of) terminals *)
Fixpoint gtarget (e : expr) : bool :=
  match e with
  | Term _ _ _ => true
  | Grad a _ => gtarget a
  | RefValue (Term _ _ _) _ => true
  | _ => false
  end.

(* CLASSIFICATION of the statement: terminal kinds (numbering of py/ufl2coq.py) whose value is the
   same on both sides of a facet: Constant 2, SpatialCoordinate 10, FacetCoordinate 12,
   FacetOrigin 15, FacetJacobian 20, FacetJacobianDeterminant 31, FacetJacobianInverse 36,
   ReferenceCellVolume 43, ReferenceFacetVolume 44, FacetArea 49, MinFacetEdgeLength 52,
   MaxFacetEdgeLength 53, QuadratureWeight 56.  (H1 coefficients are classified per coefficient by
   [cont]; everything else - arguments, cell geometry, facet normal, ... - is side dependent.)
   The list below has these 13 kinds in no particular order; only membership is used. *)
Definition sindep_list : list nat := [2; 12; 56; 43; 44; 10; 20; 31; 36; 49; 52; 53; 15].
Definition sindep_kind (k : nat) : bool := existsb (Nat.eqb k) sindep_list.

Lemma rmap1_OK {X Y} (f : X -> Y) r y : rmap1 f r = OK y -> exists x, r = OK x /\ y = f x.
Proof. destruct r; [intros [= <-]; eauto | discriminate]. Qed.
Lemma rmap2_OK {X Y Z} (f : X -> Y -> Z) r1 r2 z :
  rmap2 f r1 r2 = OK z -> exists x y, r1 = OK x /\ r2 = OK y /\ z = f x y.
Proof. destruct r1, r2; try discriminate. intros [= <-]; eauto. Qed.
Lemma rmap3_OK {X Y Z W} (f : X -> Y -> Z -> W) r1 r2 r3 w :
  rmap3 f r1 r2 r3 = OK w ->
  exists x y z, r1 = OK x /\ r2 = OK y /\ r3 = OK z /\ w = f x y z.
Proof. destruct r1, r2, r3; try discriminate. intros [= <-]; eauto 7. Qed.

Section Model.
Variable table : nat -> handler.       (* terminal kind -> handler (extracted from the source) *)
Variable lit_h : handler.              (* handler of constant_value: extracted from the source like [table]
                                          (Gen/C17_table checks it is HIgnore); the theorems assume that *)
Variable cont : nat -> bool.           (* coefficient id -> its element is in H1 *)
Variable affine_nm : bool.             (* coordinate element degree <= 1, in H1, gdim = tdim *)
Variable dr : option (option bool).    (* None: default_restrictions=None; Some r: the domain's default *)
Variable nidx : nat.                   (* the fresh index used by  -n(r)  =  as_tensor(-1*n(r)[i], i) *)

Definition resolve (k id : nat) : handler :=
  match table k with
  | HCoefficient => if cont id then HDefault else HRequire
  | HFacetNormal => if affine_nm then HOpposite else HRequire
  | h => h
  end.

(* -o  as Python builds it (_neg = -1 * o; scalar * tensor goes through as_tensor) *)
Definition neg_of (o : expr) (sh : list nat) : result expr :=
  match sh with
  | [] => OK (Product (IntV (-1)) o)
  | [d] => OK (ComponentTensor (Product (IntV (-1)) (Indexed o [Free nidx])) [(nidx, d)])
  | _ => Error EIllFormed
  end.

Definition apply_rule (h : handler) (cur : option bool) (o : expr) : result expr :=
  match h with
  | HIgnore => OK o
  | HRequire =>
      match dr, cur with
      | None, None => OK o
      | None, Some p => OK (Restricted p o)
      | Some None, None => OK o
      | Some (Some _), None => Error EMissing
      | Some None, Some _ => Error EInconsistent
      | Some (Some _), Some p => OK (Restricted p o)
      end
  | HDefault =>
      match dr, cur with
      | None, None => OK o
      | None, Some p => OK (Restricted p o)
      | Some None, None => OK o
      | Some (Some q), None => OK (Restricted q o)
      | Some None, Some _ => Error EInconsistent
      | Some (Some _), Some p => OK (Restricted p o)
      end
  | HOpposite =>
      match dr, cur with
      | None, None => OK o
      | None, Some p => OK (Restricted p o)
      | Some None, None => OK o
      | Some (Some _), None => Error EMissing
      | Some None, Some _ => Error EInconsistent
      | Some (Some q), Some p =>
          if Bool.eqb p q then OK (Restricted q o) else neg_of (Restricted q o) (shape o)
      end
  | HCoefficient | HFacetNormal | HMissing => Error ENoRule
  end.

(* what the theorems need from a table, as one boolean check over the kinds 0..n-1 *)
Definition table_ok_at (kfn k : nat) : bool :=
  match table k with
  | HIgnore | HDefault => sindep_kind k
  | HOpposite => false
  | HCoefficient => Nat.eqb k 0
  | HFacetNormal => Nat.eqb k kfn
  | HRequire | HMissing => true
  end.

Lemma resolve_cases n kfn :
  (forall k, n <= k -> table k = HMissing) ->
  forallb (table_ok_at kfn) (seq 0 n) = true ->
  forall k id,
  (resolve k id = HIgnore \/ resolve k id = HDefault -> sindep_kind k = true \/ (k = 0 /\ cont id = true))
  /\ (resolve k id = HOpposite -> k = kfn /\ affine_nm = true).
Proof.
  intros Hd Hb k id.
  assert (S : table_ok_at kfn k = true \/ table k = HMissing).
  { destruct (Nat.lt_ge_cases k n) as [L|G]; [left; apply (proj1 (forallb_forall _ _) Hb), in_seq; lia | right; exact (Hd k G)]. }
  unfold resolve, table_ok_at in *.
  destruct (table k); [| | | |destruct (cont id)|destruct affine_nm|];
    (split; [intros [H|H] | intros H]); try discriminate H;
    destruct S as [S|S]; try discriminate S; rewrite ?Nat.eqb_eq in S; auto.
Qed.

Definition form_arg_kind (k : nat) : bool := Nat.eqb k 0 || Nat.eqb k 1.

Fixpoint propagate (cur : option bool) (e : expr) {struct e} : result expr :=
  match e with
  | Zero _ _ | IntV _ | RealV _ _ | CplxV _ _ _ _ | RatV _ _ | Identity _ | PermSym _ =>
      apply_rule lit_h cur e
  | Term k id _ => apply_rule (resolve k id) cur e
  | Sum a b => rmap2 Sum (propagate cur a) (propagate cur b)
  | Product a b => rmap2 Product (propagate cur a) (propagate cur b)
  | Division a b => rmap2 Division (propagate cur a) (propagate cur b)
  | Power a b => rmap2 Power (propagate cur a) (propagate cur b)
  | Abs a => rmap1 Abs (propagate cur a)
  | Conj a => rmap1 Conj (propagate cur a)
  | Real a => rmap1 Real (propagate cur a)
  | Imag a => rmap1 Imag (propagate cur a)
  | Indexed a mi => rmap1 (fun a' => Indexed a' mi) (propagate cur a)
  | IndexSum a i d => rmap1 (fun a' => IndexSum a' i d) (propagate cur a)
  | ComponentTensor a ix => rmap1 (fun a' => ComponentTensor a' ix) (propagate cur a)
  | ListTensor es =>
      rmap1 ListTensor
        ((fix go (l : list expr) : result (list expr) :=
            match l with
            | [] => OK []
            | x :: t => rmap2 cons (propagate cur x) (go t)
            end) es)
  | Conditional c t f => rmap3 Conditional (propagate_c cur c) (propagate cur t) (propagate cur f)
  | MinV a b => rmap2 MinV (propagate cur a) (propagate cur b)
  | MaxV a b => rmap2 MaxV (propagate cur a) (propagate cur b)
  | Math fn a => rmap1 (Math fn) (propagate cur a)
  | Atan2 a b => rmap2 Atan2 (propagate cur a) (propagate cur b)
  | Bessel k nu a => rmap2 (Bessel k) (propagate cur nu) (propagate cur a)
  | Vari a _ => propagate cur a
  | Restricted p a =>
      match cur with
      | Some _ => Error EDouble
      | None => propagate (Some p) a
      end
  | Grad _ _ => apply_rule HRequire cur e
  | RefGrad a t => rmap1 (fun a' => RefGrad a' t) (propagate cur a)
  | RefValue a _ =>
      match a with
      | Term k id _ =>
          if form_arg_kind k then
            match apply_rule (resolve k id) cur a with
            | OK (Restricted p _) => OK (Restricted p e)
            | OK _ => OK e
            | Error x => Error x
            end
          else Error EIllFormed
      | _ => Error EIllFormed
      end
  | _ => Error EUnsupported
  end
with propagate_c (cur : option bool) (c : cond) {struct c} : result cond :=
  match c with
  | Cmp op a b => rmap2 (Cmp op) (propagate cur a) (propagate cur b)
  | AndC a b => rmap2 AndC (propagate_c cur a) (propagate_c cur b)
  | OrC a b => rmap2 OrC (propagate_c cur a) (propagate_c cur b)
  | NotC a => rmap1 NotC (propagate_c cur a)
  end.

Definition go_list (cur : option bool) :=
  fix go (l : list expr) : result (list expr) :=
    match l with
    | [] => OK []
    | x :: t => rmap2 cons (propagate cur x) (go t)
    end.

(* admissible inputs: n is the length of the component the expression is evaluated at.
   - a flipped normal is read with a component of the length of its shape (rank <= 1);
   - the exponent of a Power is not a Variable / Restricted node ([den] reads integer exponents
     syntactically);
   - operands of Grad are (gradients of) terminals (apply_derivatives ran before);
   - ReferenceValue is not applied to a flipped terminal. *)
Fixpoint adm (n : nat) (e : expr) {struct e} : bool :=
  match e with
  | Term k id sh =>
      if is_opp (resolve k id) then Nat.eqb n (length sh) && Nat.leb (length sh) 1 else true
  | Sum a b => adm n a && adm n b
  | Product a b | Division a b | MinV a b | MaxV a b | Atan2 a b | Bessel _ a b => adm 0 a && adm 0 b
  | Power a b => adm 0 a && adm 0 b && pow_ok b
  | Abs a | Conj a | Real a | Imag a | IndexSum a _ _ | Vari a _ | Restricted _ a => adm n a
  | Indexed a mi => adm (length mi) a
  | ComponentTensor a _ | Math _ a => adm 0 a
  | ListTensor es =>
      (fix all (l : list expr) : bool := match l with [] => true | x :: t => adm (n - 1) x && all t end) es
  | Conditional c t f => admc c && adm n t && adm n f
  | Grad a _ => gtarget a
  | RefGrad a _ => adm (n - 1) a
  | RefValue a _ => match a with Term k id _ => negb (is_opp (resolve k id)) | _ => true end
  | _ => true
  end
with admc (c : cond) {struct c} : bool :=
  match c with
  | Cmp _ a b => adm 0 a && adm 0 b
  | AndC a b | OrC a b => admc a && admc b
  | NotC a => admc a
  end.

(* What [apply_rule h cur o] returns when it succeeds: [o] itself, [o] under one restriction, or,
   for _opposite when the current side is not the default one, minus [o] on the default side. *)
Inductive rule_res (h : handler) (cur : option bool) (o : expr) : expr -> Prop :=
 | RIgnore : h = HIgnore -> rule_res h cur o o
 | RNone : cur = None -> (forall r, dr <> Some (Some r)) -> rule_res h cur o o
 | RCur p : is_ign h = false -> cur = Some p -> rule_res h cur o (Restricted p o)
 | RDefault q : h = HDefault -> cur = None -> rule_res h cur o (Restricted q o)
 | RFlip p q e' : h = HOpposite -> cur = Some p -> Bool.eqb p q = false ->
     neg_of (Restricted q o) (shape o) = OK e' -> rule_res h cur o e'.

Lemma apply_rule_inv h cur o e' : apply_rule h cur o = OK e' -> rule_res h cur o e'.
Proof.
  intros H. destruct h; cbn [apply_rule] in H; try discriminate H.
  { injection H as <-. apply RIgnore. reflexivity. }
  all: destruct dr as [[q|]|] eqn:Ed, cur as [p|]; try discriminate H.
  all: try (injection H as <-;
            first [ apply RCur; reflexivity | apply RDefault; reflexivity
                  | apply RNone; [reflexivity | rewrite Ed; discriminate] ]).
  destruct (Bool.eqb p q) eqn:E.
  - injection H as <-. apply eqb_prop in E as ->. apply RCur; reflexivity.
  - exact (RFlip _ _ _ p q e' eq_refl eq_refl E H).
Qed.

Lemma rule_res_not_lit h cur o e' : rule_res h cur o e' -> lit_int o = None -> lit_int e' = None.
Proof.
  intros R Ho. destruct R as [| | | |p q e' _ _ _ En]; auto.
  unfold neg_of in En. destruct (shape o) as [|d [|]]; try discriminate; injection En as <-; reflexivity.
Qed.

(* "Reference value of something follows same restriction rule as the underlying object": unless
   the terminal is flipped, the node is treated as if the terminal's rule were applied to it. *)
Lemma propagate_RefValue cur a sh e' : propagate cur (RefValue a sh) = OK e' ->
  exists k id sh0, a = Term k id sh0 /\
    (is_opp (resolve k id) = false -> rule_res (resolve k id) cur (RefValue a sh) e').
Proof.
  cbn [propagate]. destruct a; try discriminate. destruct (form_arg_kind k); [|discriminate].
  destruct (apply_rule _ _ _) as [g|] eqn:Eg; [|discriminate]. intros H.
  exists k, id, sh0. split; [reflexivity|]. intros O.
  destruct (apply_rule_inv _ _ _ _ Eg) as [Eh | Ec Hd | p Eh Ec | q Eh Ec | p q g Eh _ _ _];
    try injection H as <-.
  - apply RIgnore, Eh.
  - apply RNone; assumption.
  - apply RCur; assumption.
  - apply RDefault; assumption.
  - rewrite Eh in O. discriminate.
Qed.

Section Value.
Variable A : ualg.
Add Field AfC17 : (kfield A).
Variable env : side -> nat -> nat -> list nat -> A.
Variables D DX : nat -> A -> A.
Variable ki : A.
Notation DEN := (@den A env D DX ki).
Notation DENC := (@denc A env D DX ki).

(* continuity laws, stated through the table: *)
Hypothesis Hlit : lit_h = HIgnore.
Hypothesis Hind : forall k id, resolve k id = HIgnore \/ resolve k id = HDefault ->
  forall s s' c, env s k id c = env s' k id c.
Hypothesis Hflip : forall k id, resolve k id = HOpposite ->
  forall c, env (Some false) k id c = kopp (env (Some true) k id c).

Definition s0 (cur : option bool) (s : side) : side :=
  match cur with Some p => Some p | None => s end.

Lemma flip_any p q k id c : resolve k id = HOpposite -> Bool.eqb p q = false ->
  env (Some p) k id c = kopp (env (Some q) k id c).
Proof.
  intros H E. destruct p, q; try discriminate.
  - rewrite (Hflip k id H c). ring.
  - apply Hflip. exact H.
Qed.

(* the value of a rule's result, given that [o] is side independent where the rule ignores or
   defaults, and given the flipped case *)
Lemma rule_value h cur o e' c s rho :
  rule_res h cur o e' ->
  (h = HIgnore \/ h = HDefault -> forall s', DEN s rho o c = DEN s' rho o c) ->
  (h = HOpposite -> forall p q, cur = Some p -> Bool.eqb p q = false ->
     neg_of (Restricted q o) (shape o) = OK e' -> DEN s rho e' c = DEN (Some p) rho o c) ->
  DEN s rho e' c = DEN (s0 cur s) rho o c.
Proof.
  intros R Hi Hf. destruct R as [Eh | -> _ | p _ -> | q Eh -> | p q e' Eh Ec Epq En].
  - apply Hi. left. exact Eh.
  - reflexivity.
  - reflexivity.
  - symmetry. apply Hi. right. exact Eh.
  - rewrite Ec. exact (Hf Eh p q Ec Epq En).
Qed.

Lemma rule_value_term cur k id sh e' c :
  apply_rule (resolve k id) cur (Term k id sh) = OK e' ->
  adm (length c) (Term k id sh) = true ->
  forall s rho, DEN s rho e' c = env (s0 cur s) k id c.
Proof.
  intros H Ha s rho. apply (rule_value _ _ _ _ c s rho (apply_rule_inv _ _ _ _ H)).
  - intros Hh s'. apply (Hind _ _ Hh).
  - intros Hh p q _ Epq En. cbn [adm] in Ha. rewrite Hh in Ha.
    apply andb_prop in Ha as [Hn Hl]. apply Nat.eqb_eq in Hn. apply Nat.leb_le in Hl.
    unfold neg_of in En. cbn [shape] in En.
    destruct sh as [|d [|]]; [| |cbn [length] in Hl; lia]; injection En as <-;
      destruct c as [|c0 [|]]; try discriminate Hn;
      cbn [den upds map idxval upd]; rewrite ?Nat.eqb_refl, (flip_any p q k id _ Hh Epq);
      cbn [of_Z of_pos]; ring.
Qed.

(* the propagated exponent is an integer literal exactly when the exponent is *)
Lemma pow_lit cur b b' n : propagate cur b = OK b' -> pow_ok b = true -> adm n b = true ->
  lit_int b' = lit_int b.
Proof.
  intros H Hp Ha. destruct b; try discriminate Hp; cbn [propagate] in H; try discriminate H;
    try (rewrite Hlit in H; injection H as <-; reflexivity);
    try (apply rmap1_OK in H as (? & _ & ->); reflexivity);
    try (apply rmap2_OK in H as (? & ? & _ & _ & ->); reflexivity);
    try (apply rmap3_OK in H as (? & ? & ? & _ & _ & _ & ->); reflexivity).
  - exact (rule_res_not_lit _ _ _ _ (apply_rule_inv _ _ _ _ H) eq_refl).
  - exact (rule_res_not_lit _ _ _ _ (apply_rule_inv _ _ _ _ H) eq_refl).
  - destruct (propagate_RefValue _ _ _ _ H) as (k & id & sh0 & -> & R).
    cbn [adm] in Ha. apply negb_true_iff in Ha. exact (rule_res_not_lit _ _ _ _ (R Ha) eq_refl).
Qed.

Lemma value_ec :
  (forall e cur e' c (Hp : propagate cur e = OK e') (Ha : adm (length c) e = true) s rho,
     DEN s rho e' c = DEN (s0 cur s) rho e c) /\
  (forall cn cur cn' (Hp : propagate_c cur cn = OK cn') (Ha : admc cn = true) s rho,
     DENC s rho cn' = DENC (s0 cur s) rho cn).
Proof.
  (* [H], [H0], [H1] are the induction hypotheses for the operands, in order *)
  apply expr_cond_full_ind; intros; cbn [propagate propagate_c] in Hp; try discriminate Hp.
  all: try (rewrite Hlit in Hp; injection Hp as <-; reflexivity).
  all: try (apply rmap1_OK in Hp as (a' & Ea & ->); refine (f_equal _ (H _ _ _ Ea _ s rho)); exact Ha).
  all: try (apply rmap2_OK in Hp as (a' & b' & Ea & Eb & ->); cbn [adm admc] in Ha; bsplit;
            refine (f_equal2 _ (H _ _ _ Ea _ s rho) (H0 _ _ _ Eb _ s rho)); assumption).
  all: try (apply rmap2_OK in Hp as (a' & b' & Ea & Eb & ->); cbn [admc] in Ha; bsplit;
            refine (f_equal2 _ (H _ _ Ea _ s rho) (H0 _ _ Eb _ s rho)); assumption).
  - apply (rule_value_term _ _ _ _ _ _ Hp Ha).
  - apply rmap2_OK in Hp as (a' & b' & Ea & Eb & ->). cbn [adm] in Ha.
    apply andb_prop in Ha as [Ha Hpow]. apply andb_prop in Ha as [Haa Hab].
    rewrite !den_Power, (pow_lit _ _ _ _ Eb Hpow Hab).
    exact (f_equal2 _ (H _ _ [] Ea Haa s rho) (H0 _ _ [] Eb Hab s rho)).
  - apply rmap1_OK in Hp as (a' & Ea & ->). apply (H _ _ (map (idxval rho) mi) Ea).
    rewrite map_length. exact Ha.
  - apply rmap1_OK in Hp as (a' & Ea & ->). apply (ksum_ext A d). intros j _.
    apply (H _ _ _ Ea Ha).
  - apply rmap1_OK in Hp as (a' & Ea & ->). apply (H _ _ [] Ea Ha).
  - apply rmap1_OK in Hp as (es' & E & ->). rewrite !den_ListTensor.
    destruct c as [|k c']; [reflexivity|]. cbn [adm length] in Ha. rewrite Nat.sub_succ, Nat.sub_0_r in Ha.
    revert es' E k. induction H as [|x t Hx _ IHt]; intros es' E k; cbn in E.
    + injection E as <-. destruct k; reflexivity.
    + apply rmap2_OK in E as (x' & t' & Ex & Et & ->). apply andb_prop in Ha as [Hax Hat].
      destruct k; cbn [nth_error]; [apply (Hx _ _ _ Ex Hax) | apply (IHt Hat _ Et)].
  - apply rmap3_OK in Hp as (c' & t' & f' & Ec & Et & Ef & ->). cbn [adm] in Ha. bsplit.
    refine (f_equal3 _ (H _ _ Ec _ s rho) (H0 _ _ _ Et _ s rho) (H1 _ _ _ Ef _ s rho)); assumption.
  - apply (H _ _ _ Hp Ha).
  - destruct cur; [discriminate|]. apply (H _ _ _ Hp Ha).
  - apply (rule_value _ _ _ _ c s rho (apply_rule_inv _ _ _ _ Hp)); [intros [|]|]; discriminate.
  - apply rmap1_OK in Hp as (a' & Ea & ->). cbn [adm] in Ha.
    assert (L : length (removelast c) = length c - 1).
    { rewrite removelast_firstn_len, firstn_length, Nat.sub_1_r. apply Nat.min_l, Nat.le_pred_l. }
    rewrite <- L in Ha. exact (f_equal _ (H _ _ _ Ea Ha s rho)).
  - destruct (propagate_RefValue _ _ _ _ Hp) as (k & id & sh0 & -> & R).
    cbn [adm] in Ha. apply negb_true_iff in Ha.
    apply (rule_value _ _ _ _ c s rho (R Ha)).
    + intros Hh s'. apply (Hind _ _ Hh).
    + intros Hh. rewrite Hh in Ha. discriminate.
  - apply rmap1_OK in Hp as (a' & Ea & ->). exact (f_equal _ (H _ _ Ea Ha s rho)).
Qed.

(* the propagated integrand has the two-sided value of the original one *)
Theorem C17_value e e' c : propagate None e = OK e' -> adm (length c) e = true ->
  forall rho, DEN None rho e' c = DEN None rho e c.
Proof. intros H Ha rho. apply (proj1 value_ec e None e' c H Ha None rho). Qed.

(* inside a restriction the result does not depend on the outer side any more *)
Theorem C17_value_inside p e e' c : propagate (Some p) e = OK e' -> adm (length c) e = true ->
  forall s rho, DEN s rho e' c = DEN (Some p) rho e c.
Proof. intros H Ha s rho. apply (proj1 value_ec e (Some p) e' c H Ha s rho). Qed.

End Value.

(* what a Restricted node may wrap in the output *)
Definition rtarget (a : expr) : bool :=
  match a with
  | Term k id _ => negb (is_ign (resolve k id))
  | Grad b _ => gtarget b
  | RefValue (Term k id _) _ => negb (is_ign (resolve k id))
  | _ => false
  end.

Fixpoint once_ok (e : expr) {struct e} : bool :=
  match e with
  | Zero _ _ | IntV _ | RealV _ _ | CplxV _ _ _ _ | RatV _ _ | Identity _ | PermSym _ => true
  | Term k id _ => is_ign (resolve k id)
  | Restricted _ a => rtarget a
  | Grad _ _ | Div _ _ | NablaGrad _ _ | NablaDiv _ _ | Curl _ => false
  | RefValue a _ => match a with Term k id _ => is_ign (resolve k id) | _ => false end
  | Sum a b | Product a b | Division a b | Power a b | MinV a b | MaxV a b | Atan2 a b
  | Bessel _ a b | Outer a b | Inner a b | Dot a b | Cross a b => once_ok a && once_ok b
  | Abs a | Conj a | Real a | Imag a | Indexed a _ | IndexSum a _ _ | ComponentTensor a _
  | Math _ a | Vari a _ | RefGrad a _ | Transposed a | Perp a | Trace a | Determinant a
  | Inverse a | Cofactor a | Deviatoric a | Skew a | Sym a => once_ok a
  | ListTensor es => (fix all (l : list expr) : bool := match l with [] => true | x :: t => once_ok x && all t end) es
  | Conditional c t f => once_c c && once_ok t && once_ok f
  end
with once_c (c : cond) {struct c} : bool :=
  match c with
  | Cmp _ a b => once_ok a && once_ok b
  | AndC a b | OrC a b => once_c a && once_c b
  | NotC a => once_c a
  end.

(* Propagated normal form when NO default restriction is configured (default_restrictions=None,
   compute_form_data(do_apply_restrictions=True, do_apply_default_restrictions=False)): every
   Restricted node of the output sits directly on a terminal of a non-ignored class, on a Grad of
   terminals or on the ReferenceValue of such a terminal; unrestricted terminals stay as they are. *)
Fixpoint prop_ok (e : expr) {struct e} : bool :=
  match e with
  | Zero _ _ | IntV _ | RealV _ _ | CplxV _ _ _ _ | RatV _ _ | Identity _ | PermSym _ => true
  | Term _ _ _ => true
  | Restricted _ a => rtarget a
  | Grad a _ => gtarget a
  | Div _ _ | NablaGrad _ _ | NablaDiv _ _ | Curl _ => false
  | RefValue a _ => match a with Term _ _ _ => true | _ => false end
  | Sum a b | Product a b | Division a b | Power a b | MinV a b | MaxV a b | Atan2 a b
  | Bessel _ a b | Outer a b | Inner a b | Dot a b | Cross a b => prop_ok a && prop_ok b
  | Abs a | Conj a | Real a | Imag a | Indexed a _ | IndexSum a _ _ | ComponentTensor a _
  | Math _ a | Vari a _ | RefGrad a _ | Transposed a | Perp a | Trace a | Determinant a
  | Inverse a | Cofactor a | Deviatoric a | Skew a | Sym a => prop_ok a
  | ListTensor es => (fix all (l : list expr) : bool := match l with [] => true | x :: t => prop_ok x && all t end) es
  | Conditional c t f => prop_c c && prop_ok t && prop_ok f
  end
with prop_c (c : cond) {struct c} : bool :=
  match c with
  | Cmp _ a b => prop_ok a && prop_ok b
  | AndC a b | OrC a b => prop_c a && prop_c b
  | NotC a => prop_c a
  end.

(* The two shape predicates of an output node as a pair of booleans: the first holds when a default
   restriction is configured, the second always.  Such pairs are closed under [&&]. *)
Definition shaped (once prop : bool) : Prop :=
  (forall r, dr = Some (Some r) -> once = true) /\ prop = true.

Lemma shaped_true : shaped true true.
Proof. split; reflexivity. Qed.

Lemma shaped_and o1 p1 o2 p2 : shaped o1 p1 -> shaped o2 p2 -> shaped (o1 && o2) (p1 && p2).
Proof.
  intros [O1 P1] [O2 P2].
  split; [intros r E; rewrite (O1 r E), (O2 r E) | rewrite P1, P2]; reflexivity.
Qed.

Lemma rule_shape h cur o e' :
  rule_res h cur o e' -> rtarget o = negb (is_ign h) -> prop_ok o = true ->
  once_ok o = is_ign h -> shaped (once_ok e') (prop_ok e').
Proof.
  intros R Ht Hp Ho.
  assert (T : is_ign h = false -> rtarget o = true) by (intros E; rewrite Ht, E; reflexivity).
  destruct R as [-> | _ Hd | p Hi _ | q -> _ | p q e' -> _ _ En].
  - split; auto.
  - split; [intros r E; destruct (Hd r E) | exact Hp].
  - split; intros; apply T, Hi.
  - split; intros; apply T; reflexivity.
  - unfold neg_of in En. destruct (shape o) as [|d [|]]; try discriminate; injection En as <-;
      (split; intros; apply T; reflexivity).
Qed.

Lemma shape_ec : lit_h = HIgnore ->
  (forall e cur e' n (Hp : propagate cur e = OK e') (Ha : adm n e = true),
     shaped (once_ok e') (prop_ok e')) /\
  (forall cn cur cn' (Hp : propagate_c cur cn = OK cn') (Ha : admc cn = true),
     shaped (once_c cn') (prop_c cn')).
Proof.
  intros Hlit.
  apply expr_cond_full_ind; intros; cbn [propagate propagate_c] in Hp; try discriminate Hp.
  all: try (rewrite Hlit in Hp; injection Hp as <-; apply shaped_true).
  all: try (apply rmap1_OK in Hp as (a' & Ea & ->); exact (H _ _ _ Ea Ha)).
  all: try (apply rmap2_OK in Hp as (a' & b' & Ea & Eb & ->); cbn [adm admc] in Ha; bsplit;
            refine (shaped_and _ _ _ _ (H _ _ _ Ea _) (H0 _ _ _ Eb _)); eassumption).
  all: try (apply rmap2_OK in Hp as (a' & b' & Ea & Eb & ->); cbn [admc] in Ha; bsplit;
            refine (shaped_and _ _ _ _ (H _ _ Ea _) (H0 _ _ Eb _)); assumption).
  - apply (rule_shape _ _ _ _ (apply_rule_inv _ _ _ _ Hp)); reflexivity.
  - apply rmap1_OK in Hp as (es' & E & ->). cbn [adm] in Ha. cbn [once_ok prop_ok].
    revert es' E. induction H as [|x t Hx _ IHt]; intros es' E; cbn in E.
    + injection E as <-. apply shaped_true.
    + apply rmap2_OK in E as (x' & t' & Ex & Et & ->). apply andb_prop in Ha as [Hax Hat].
      apply shaped_and; [exact (Hx _ _ _ Ex Hax) | exact (IHt Hat _ Et)].
  - apply rmap3_OK in Hp as (c' & t' & f' & Ec & Et & Ef & ->). cbn [adm] in Ha. bsplit.
    refine (shaped_and _ _ _ _ (shaped_and _ _ _ _ (H _ _ Ec _) (H0 _ _ _ Et _)) (H1 _ _ _ Ef _)); eassumption.
  - exact (H _ _ _ Hp Ha).
  - destruct cur; [discriminate|]. exact (H _ _ _ Hp Ha).
  - cbn [adm] in Ha.
    apply (rule_shape _ _ _ _ (apply_rule_inv _ _ _ _ Hp)); [exact Ha | exact Ha | reflexivity].
  - destruct (propagate_RefValue _ _ _ _ Hp) as (k & id & sh0 & -> & R).
    cbn [adm] in Ha. apply negb_true_iff in Ha.
    apply (rule_shape _ _ _ _ (R Ha)); reflexivity.
  - apply rmap1_OK in Hp as (a' & Ea & ->). exact (H _ _ Ea Ha).
Qed.

Section Once.
Hypothesis Hlit : lit_h = HIgnore.
Variable r0 : bool.
Hypothesis Hdr : dr = Some (Some r0).

Theorem C17_once e e' n : propagate None e = OK e' -> adm n e = true -> once_ok e' = true.
Proof. intros H Ha. exact (proj1 (proj1 (shape_ec Hlit) e None e' n H Ha) r0 Hdr). Qed.

End Once.

Section Propagated.
Hypothesis Hlit : lit_h = HIgnore.
Hypothesis Hdr : dr = None.

Theorem C17_propagated e e' n : propagate None e = OK e' -> adm n e = true -> prop_ok e' = true.
Proof using Hlit Hdr. intros H Ha. exact (proj2 (proj1 (shape_ec Hlit) e None e' n H Ha)). Qed.

End Propagated.

(* [bad chk inside e]: e contains a Restricted node inside a restriction, or (chk) an
   unrestricted terminal / Grad whose rule demands a restriction.  Grad operands are not
   inspected (the implementation does not visit them). *)
Definition must_restrict (h : handler) : bool :=
  match h with HRequire | HOpposite => true | _ => false end.

Fixpoint bad (chk inside : bool) (e : expr) {struct e} : bool :=
  match e with
  | Term k id _ => chk && negb inside && must_restrict (resolve k id)
  | Grad _ _ => chk && negb inside
  | Restricted _ a => inside || bad chk true a
  | RefValue a _ => match a with Term k id _ => form_arg_kind k && chk && negb inside && must_restrict (resolve k id) | _ => false end
  | Sum a b | Product a b | Division a b | Power a b | MinV a b | MaxV a b | Atan2 a b
  | Bessel _ a b => bad chk inside a || bad chk inside b
  | Abs a | Conj a | Real a | Imag a | Indexed a _ | IndexSum a _ _ | ComponentTensor a _
  | Math _ a | Vari a _ | RefGrad a _ => bad chk inside a
  | ListTensor es => (fix any (l : list expr) : bool := match l with [] => false | x :: t => bad chk inside x || any t end) es
  | Conditional c t f => bad_c chk inside c || bad chk inside t || bad chk inside f
  | _ => false
  end
with bad_c (chk inside : bool) (c : cond) {struct c} : bool :=
  match c with
  | Cmp _ a b => bad chk inside a || bad chk inside b
  | AndC a b | OrC a b => bad_c chk inside a || bad_c chk inside b
  | NotC a => bad_c chk inside a
  end.

Section Rejects.
Variable chk : bool.
Hypothesis Hchk : chk = true -> exists r, dr = Some (Some r).

Lemma rule_missing h o : chk = true -> must_restrict h = true -> is_err (apply_rule h None o).
Proof.
  intros C M. destruct (Hchk C) as [r Hr]. unfold apply_rule. rewrite Hr.
  destruct h; try discriminate; eexists; reflexivity.
Qed.

Lemma rej_ec :
  (forall e cur (Hb : bad chk (is_some cur) e = true), is_err (propagate cur e)) /\
  (forall cn cur (Hb : bad_c chk (is_some cur) cn = true), is_err (propagate_c cur cn)).
Proof.
  apply expr_cond_full_ind; intros; cbn [bad bad_c] in Hb; try discriminate Hb;
    cbn [propagate propagate_c].
  all: try (apply rmap1_err, H, Hb).
  all: try exact (rmap2_err _ _ _ _ _ Hb (H cur) (H0 cur)).
  - apply andb_prop in Hb as [Hb M]. apply andb_prop in Hb as [C I].
    destruct cur; [discriminate|]. apply rule_missing; assumption.
  - apply rmap1_err. induction H as [|x t Hx _ IHt]; [discriminate|].
    exact (rmap2_err _ _ _ _ _ Hb (Hx cur) IHt).
  - exact (rmap3_err _ _ _ _ _ _ _ Hb (H cur) (H0 cur) (H1 cur)).
  - apply H, Hb.
  - destruct cur as [p|]; [eexists; reflexivity|]. apply (H (Some plus)), Hb.
  - apply andb_prop in Hb as [C I]. destruct cur; [discriminate|].
    apply rule_missing; [exact C | reflexivity].
  - destruct a; try discriminate.
    apply andb_prop in Hb as [Hb M]. apply andb_prop in Hb as [Hb I]. apply andb_prop in Hb as [F C].
    rewrite F. destruct cur; [discriminate|].
    destruct (rule_missing (resolve k id) (Term k id sh0) C M) as [er ->]. eexists; reflexivity.
Qed.

Theorem C17_rejects e : bad chk false e = true -> is_err (propagate None e).
Proof. apply (proj1 rej_ec e None). Qed.

End Rejects.

End Model.

(* double restriction is rejected for every table and every default-restriction setting *)
Corollary C17_rejects_double table lit_h cont aff dr nidx e :
  bad table cont aff false false e = true -> is_err (propagate table lit_h cont aff dr nidx None e).
Proof. apply C17_rejects. intros; discriminate. Qed.

(* missing restriction is rejected whenever a default restriction is configured *)
Corollary C17_rejects_missing table lit_h cont aff r nidx e :
  bad table cont aff true false e = true ->
  is_err (propagate table lit_h cont aff (Some (Some r)) nidx None e).
Proof. apply C17_rejects. intros _. exists r. reflexivity. Qed.

(* REFUTED half of "missing restrictions are rejected, default restriction on/off": with
   default_restrictions=None (compute_form_data(do_apply_default_restrictions=False)) the rule
   _require_restriction returns the operand unchanged, so an unrestricted discontinuous terminal on
   an interior facet passes. *)
Theorem C17_defaults_off_accepts_missing table lit_h cont aff nidx k id sh :
  must_restrict (resolve table cont aff k id) = true ->
  bad table cont aff true false (Term k id sh) = true /\
  propagate table lit_h cont aff None nidx None (Term k id sh) = OK (Term k id sh).
Proof.
  intros M. split.
  - cbn [bad]. rewrite M. reflexivity.
  - cbn [propagate]. unfold apply_rule. destruct (resolve table cont aff k id); try discriminate; reflexivity.
Qed.

Print Assumptions C17_value.
Print Assumptions C17_value_inside.
Print Assumptions C17_once.
Print Assumptions C17_propagated.
Print Assumptions C17_rejects.
Print Assumptions C17_rejects_double.
Print Assumptions C17_rejects_missing.
Print Assumptions C17_defaults_off_accepts_missing.