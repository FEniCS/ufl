(* C10: model of expand_indices (IndexExpander of ufl/algorithms/expand_indices.py).

   [expand0 v c e]   the pure transformation: v = the StackDict index -> value (latest binding
                     first), c = the current component; the result is a scalar expression
                     without free indices;
   [expandS]         the same with the label-keyed variable cache of Transformer.reuse_variable
                     threaded through the traversal (the code before /repo b76108f: a cache hit
                     returns the expansion made under the FIRST component context), and a flag
                     recording whether some cache hit happened under a component different from the
                     one the entry was created under ([var_ctx_clash], the class of the known
                     finding).  With b76108f the cache is keyed by label and context: [expandK] of
                     C10_expandk.v; py/props/C10.py detects per run which of the two the tree has;
   Theorem C10_expand_partial: for every expression of the fragment, valuation, valid component:
       expand0 v c e = Some e'  ->  den rho' e' [] = den (rho_of v) e c     for every rho'.
   The generated files check [expand_indices e = expand0 [] [] e] by computation for every
   generated input on which no clash occurs. *)
Require Import UFLV.Core.Facts UFLV.Props.C10_model UFLV.Props.C10_lemmas UFLV.Props.C10_thm.
Import ListNotations.

Definition valn := list (nat * nat).
Fixpoint vlookup (v : valn) (i : nat) : option nat :=
  match v with [] => None | (j, k) :: t => if Nat.eqb i j then Some k else vlookup t i end.
Definition rho_of (v : valn) : nat -> nat :=
  fun i => match vlookup v i with Some k => k | None => 0 end.
Definition mi_vals (v : valn) (mi : list idx) : option (list nat) :=
  mapM (fun x => match x with Fixed n => Some n | Free i => vlookup v i end) mi.
Fixpoint push_all (v : valn) (ix : list (nat * nat)) (c : list nat) : valn :=
  match ix, c with
  | (i, _) :: ix', k :: c' => push_all ((i, k) :: v) ix' c'
  | _, _ => v
  end.
(* sum(ops) of Python: op0 + op1 + ... *)
Fixpoint esum (d : nat) (f : nat -> option expr) : option expr :=
  match d with
  | 0 => Some (Zero [] [])
  | S m => bind (esum m f) (fun acc => bind (f m) (fun x =>
             Some (match m with 0 => x | _ => Sum acc x end)))
  end.
Definition fixed_mi (c : list nat) : list idx := map Fixed c.
Definition at_comp (e : expr) (sh c : list nat) : option expr :=
  if Nat.eqb (length sh) (length c)
  then Some (match c with [] => e | _ => Indexed e (fixed_mi c) end) else None.

Section Exp0.
Variable expand0 : valn -> list nat -> expr -> option expr.
Fixpoint cexpand0 (v : valn) (cn : cond) : option cond :=
  match cn with
  | Cmp op a b => bind (expand0 v [] a) (fun a' => bind (expand0 v [] b) (fun b' => Some (Cmp op a' b')))
  | AndC a b => bind (cexpand0 v a) (fun a' => bind (cexpand0 v b) (fun b' => Some (AndC a' b')))
  | OrC a b => bind (cexpand0 v a) (fun a' => bind (cexpand0 v b) (fun b' => Some (OrC a' b')))
  | NotC a => bind (cexpand0 v a) (fun a' => Some (NotC a'))
  end.
End Exp0.

Fixpoint expand0 (v : valn) (c : list nat) (e : expr) {struct e} : option expr :=
  let un (C : expr -> expr) a := bind (expand0 v c a) (fun a' => Some (C a')) in
  let bin (C : expr -> expr -> expr) a b :=
    bind (expand0 v c a) (fun a' => bind (expand0 v c b) (fun b' => Some (C a' b'))) in
  match e with
  | Zero sh _ => if Nat.eqb (length sh) (length c) then Some (Zero [] []) else None
  | IntV _ | RealV _ _ | CplxV _ _ _ _ | RatV _ _ => match c with [] => Some e | _ => None end
  | Identity n => at_comp e [n; n] c
  | PermSym n => at_comp e (repeat n n) c
  | Term _ _ sh => at_comp e sh c
  | Sum a b => bin Sum a b
  | Product a b => bin Product a b
  | Division a b => match c with [] => bin Division a b | _ => None end
  | Power a b => if is_lit b then un (fun a' => Power a' b) a else bin Power a b
  | Abs a => un Abs a | Conj a => un Conj a | Real a => un Real a | Imag a => un Imag a
  | Math g a => un (Math g) a
  | MinV a b => bin MinV a b | MaxV a b => bin MaxV a b | Atan2 a b => bin Atan2 a b
  | Bessel k a b => bin (Bessel k) a b
  | Restricted p a => un (Restricted p) a
  | Vari a l => un (fun a' => Vari a' l) a
  | Indexed a mi => bind (mi_vals v mi) (fun c' => expand0 v c' a)
  | IndexSum a i d => esum d (fun k => expand0 ((i, k) :: v) c a)
  | ComponentTensor a ix =>
      if Nat.eqb (length ix) (length c) then expand0 (push_all v ix c) [] a else None
  | ListTensor es =>
      match c with
      | [] => None
      | k :: c' =>
          (fix pick (l : list expr) (n : nat) {struct l} : option expr :=
             match l, n with
             | [], _ => None
             | x :: _, 0 => expand0 v c' x
             | _ :: t, S n' => pick t n'
             end) es k
      end
  | Conditional cn t f =>
      bind (cexpand0 expand0 v cn) (fun cn' => bind (expand0 v c t) (fun t' =>
        bind (expand0 v c f) (fun f' => Some (Conditional cn' t' f'))))
  | Grad a g => match dv a with [] => at_comp e (shape a ++ [g]) c | _ => None end
  | _ => None
  end.

(* ---- with the variable cache ---- *)
Definition centry := (nat * (expr * list nat))%type.
Definition cstate := (list centry * bool)%type.
Fixpoint clookup (ch : list centry) (l : nat) : option (expr * list nat) :=
  match ch with [] => None | (j, x) :: t => if Nat.eqb l j then Some x else clookup t l end.
Fixpoint list_eqb (a b : list nat) : bool :=
  match a, b with
  | [], [] => true
  | x :: a', y :: b' => Nat.eqb x y && list_eqb a' b'
  | _, _ => false
  end.
Definition bindS {X Y} (o : option (X * cstate)) (f : X -> cstate -> option (Y * cstate)) :=
  match o with Some (x, st) => f x st | None => None end.
Fixpoint esumS (d : nat) (f : nat -> cstate -> option (expr * cstate)) (st : cstate) :
  option (expr * cstate) :=
  match d with
  | 0 => Some (Zero [] [], st)
  | S m => bindS (esumS m f st) (fun acc st1 => bindS (f m st1) (fun x st2 =>
             Some (match m with 0 => x | _ => Sum acc x end, st2)))
  end.
Section ExpS.
Variable expandS : valn -> list nat -> expr -> cstate -> option (expr * cstate).
Fixpoint cexpandS (v : valn) (cn : cond) (st : cstate) : option (cond * cstate) :=
  match cn with
  | Cmp op a b => bindS (expandS v [] a st) (fun a' st1 => bindS (expandS v [] b st1) (fun b' st2 =>
                    Some (Cmp op a' b', st2)))
  | AndC a b => bindS (cexpandS v a st) (fun a' st1 => bindS (cexpandS v b st1) (fun b' st2 =>
                    Some (AndC a' b', st2)))
  | OrC a b => bindS (cexpandS v a st) (fun a' st1 => bindS (cexpandS v b st1) (fun b' st2 =>
                    Some (OrC a' b', st2)))
  | NotC a => bindS (cexpandS v a st) (fun a' st1 => Some (NotC a', st1))
  end.
End ExpS.
Definition ret (st : cstate) (o : option expr) : option (expr * cstate) :=
  match o with Some e => Some (e, st) | None => None end.

Fixpoint expandS (v : valn) (c : list nat) (e : expr) (st : cstate) {struct e} :
  option (expr * cstate) :=
  let un (C : expr -> expr) a := bindS (expandS v c a st) (fun a' st1 => Some (C a', st1)) in
  let bin (C : expr -> expr -> expr) a b :=
    bindS (expandS v c a st) (fun a' st1 => bindS (expandS v c b st1) (fun b' st2 => Some (C a' b', st2))) in
  match e with
  | Zero sh _ => ret st (if Nat.eqb (length sh) (length c) then Some (Zero [] []) else None)
  | IntV _ | RealV _ _ | CplxV _ _ _ _ | RatV _ _ => ret st (match c with [] => Some e | _ => None end)
  | Identity n => ret st (at_comp e [n; n] c)
  | PermSym n => ret st (at_comp e (repeat n n) c)
  | Term _ _ sh => ret st (at_comp e sh c)
  | Sum a b => bin Sum a b
  | Product a b => bin Product a b
  | Division a b => match c with [] => bin Division a b | _ => None end
  | Power a b => if is_lit b then un (fun a' => Power a' b) a else bin Power a b
  | Abs a => un Abs a | Conj a => un Conj a | Real a => un Real a | Imag a => un Imag a
  | Math g a => un (Math g) a
  | MinV a b => bin MinV a b | MaxV a b => bin MaxV a b | Atan2 a b => bin Atan2 a b
  | Bessel k a b => bin (Bessel k) a b
  | Restricted p a => un (Restricted p) a
  | Vari a l =>
      match clookup (fst st) l with
      | Some (x, c0) => Some (x, (fst st, snd st || negb (list_eqb c c0)))
      | None => bindS (expandS v c a st) (fun a' st1 =>
                  let x := Vari a' l in Some (x, ((l, (x, c)) :: fst st1, snd st1)))
      end
  | Indexed a mi => match mi_vals v mi with Some c' => expandS v c' a st | None => None end
  | IndexSum a i d => esumS d (fun k st1 => expandS ((i, k) :: v) c a st1) st
  | ComponentTensor a ix =>
      if Nat.eqb (length ix) (length c) then expandS (push_all v ix c) [] a st else None
  | ListTensor es =>
      match c with
      | [] => None
      | k :: c' =>
          (fix pick (l : list expr) (n : nat) {struct l} : option (expr * cstate) :=
             match l, n with
             | [], _ => None
             | x :: _, 0 => expandS v c' x st
             | _ :: t, S n' => pick t n'
             end) es k
      end
  | Conditional cn t f =>
      bindS (cexpandS expandS v cn st) (fun cn' st1 => bindS (expandS v c t st1) (fun t' st2 =>
        bindS (expandS v c f st2) (fun f' st3 => Some (Conditional cn' t' f', st3))))
  | Grad a g => ret st (match dv a with [] => at_comp e (shape a ++ [g]) c | _ => None end)
  | _ => None
  end.

Definition expand_indices (e : expr) : option expr :=
  match expandS [] [] e ([], false) with Some (x, _) => Some x | None => None end.
(* some Variable label is re-used from the cache under a different component context *)
Definition var_ctx_clash (e : expr) : bool :=
  match expandS [] [] e ([], false) with Some (_, (_, b)) => b | None => false end.

Lemma mi_vals_spec v mi c' : mi_vals v mi = Some c' -> map (idxval (rho_of v)) mi = c'.
Proof.
  intros H. apply mapM_Forall2 in H. induction H as [|x k t t' E HF IH]; [reflexivity|].
  cbn [map]. f_equal; [|exact IH]. destruct x as [n|i]; cbn; [congruence|].
  unfold rho_of. rewrite E. reflexivity.
Qed.
Lemma rho_of_push v i k j : rho_of ((i, k) :: v) j = upd (rho_of v) i k j.
Proof. unfold rho_of. cbn. destruct (Nat.eqb j i); reflexivity. Qed.
Lemma rho_of_push_all : forall ix c v j, length ix = length c ->
  rho_of (push_all v ix c) j = upds (rho_of v) ix c j.
Proof.
  induction ix as [|[i d] t IH]; intros c v j Hl; destruct c as [|k c']; try discriminate Hl; [reflexivity|].
  cbn [push_all upds]. rewrite IH by (injection Hl; auto). apply upds_at. apply rho_of_push.
Qed.
Lemma map_idxval_fixed rho c : map (idxval rho) (fixed_mi c) = c.
Proof. unfold fixed_mi. rewrite map_map. cbn. apply map_id. Qed.

Lemma cexpand0_cmapM g v cn : cexpand0 g v cn = cmapM (g v []) cn.
Proof. induction cn; cbn [cexpand0 cmapM]; rewrite ?IHcn1, ?IHcn2, ?IHcn; reflexivity. Qed.
Lemma expand0_ListTensor v k c es :
  expand0 v (k :: c) (ListTensor es) = match nth_error es k with Some x => expand0 v c x | None => None end.
Proof. cbn [expand0]. revert k; induction es as [|x t IH]; intros [|k]; try reflexivity. apply IH. Qed.

Section ExpThm.
Variable A : ualg.
Variable env : side -> nat -> nat -> list nat -> A.
Variables D DX : nat -> A -> A.
Variable ki : A.
Notation DEN := (@den A env D DX ki).

Lemma at_comp_den e sh c e' rho' rho s :
  at_comp e sh c = Some e' -> DEN s rho' e c = DEN s rho e c ->
  DEN s rho' e' [] = DEN s rho e c.
Proof.
  unfold at_comp. destruct (Nat.eqb (length sh) (length c)); [|discriminate].
  intros H Hi. injection H as <-. destruct c as [|k c']; [apply Hi|].
  cbn [den]. rewrite map_idxval_fixed. apply Hi.
Qed.

Lemma esum_den d f e' (g : nat -> A) s rho' :
  esum d f = Some e' ->
  (forall k x, k < d -> f k = Some x -> DEN s rho' x [] = g k) ->
  DEN s rho' e' [] = ksum d g.
Proof.
  revert e'; induction d as [|m IH]; intros e' H Hf; cbn [esum] in H.
  - injection H as <-. reflexivity.
  - apply bind2_inv in H as (acc & x & Ea & Ex & ->).
    cbn [ksum]. rewrite <- (Hf m x (Nat.lt_succ_diag_r m) Ex).
    rewrite <- (IH acc Ea) by (intros k y Hk; apply Hf; lia).
    destruct m; [|reflexivity]. injection Ea as <-. symmetry. apply (Radd_0_l (F_R (kfield A))).
Qed.

(* the value of the expansion of the child a, from E : expand0 v c a = Some a' and the rank of a
   that the context records *)
Ltac child IH E :=
  match type of E with expand0 _ _ ?a = Some _ =>
    match goal with R : rk a _ = true |- _ => rewrite (IH a ltac:(cbn; auto) _ _ _ E R) end
  end.

(* expand_indices (without variable-cache clashes) preserves the value: for every expression of the
   fragment, every index valuation v, every valid component c, every algebra and environment the
   expansion is a scalar whose value does not depend on any index valuation rho' and equals the
   value of component c of e under v *)
Theorem C10_expand_partial e v c e' :
  expand0 v c e = Some e' -> rk e (length c) = true ->
  forall s rho', DEN s rho' e' [] = DEN s (rho_of v) e c.
Proof.
  revert v c e'. induction e as [e IH] using children_ind. intros v c e' Hm Hr s rho'.
  destruct e; try discriminate Hr; cbn [expand0] in Hm; try discriminate Hm; cbn [rk] in Hr.
  (* leaves *)
  all: try (apply (at_comp_den _ _ _ _ _ _ _ Hm); reflexivity).
  all: try (destruct c; [|discriminate Hm]; injection Hm as <-; reflexivity).
  (* nodes with one or two operands, at the empty component or at the component of the node *)
  all: try (bsplit;
            try (match goal with H : Nat.eqb (length _) 0 = true |- _ =>
                   apply (length_eqb0 _ _ eq_refl) in H; subst; cbv iota in Hm end);
            first [apply bind2_inv in Hm as (a' & b' & Ea & Eb & ->); cbn [den]; child IH Ea; child IH Eb
                  |apply bind1_inv in Hm as (a' & Ea & ->); cbn [den]; child IH Ea];
            reflexivity).
  - (* Zero *) destruct (Nat.eqb (length sh) (length c)); [|discriminate]. injection Hm as <-. reflexivity.
  - (* Power: the exponent is a literal *)
    apply andb_prop in Hr as [Hr Ra]. apply andb_prop in Hr as [Hc Hl].
    apply (length_eqb0 _ _ eq_refl) in Hc as ->. rewrite Hl in Hm. apply bind1_inv in Hm as (a' & Ea & ->).
    rewrite !den_Power, (IH e1 (or_introl eq_refl) _ _ _ Ea Ra), (den_lit A env D DX ki e2 Hl s rho' (rho_of v)).
    reflexivity.
  - (* Indexed *)
    apply andb_prop in Hr as [_ Ra].
    apply bind_inv in Hm as (c' & Ev & Hm). apply mi_vals_spec in Ev as <-. cbn [den].
    apply (IH e (or_introl eq_refl) _ _ _ Hm). rewrite map_length. exact Ra.
  - (* IndexSum *)
    cbn [den]. apply (esum_den d _ e' _ s rho' Hm). intros k x Hk Ex.
    rewrite (IH e (or_introl eq_refl) _ _ _ Ex Hr).
    apply den_ext_on; [|exact Hr]. intros j _. apply rho_of_push.
  - (* ComponentTensor *)
    apply andb_prop in Hr as [Hl Ra].
    rewrite Nat.eqb_sym in Hl. rewrite Hl in Hm. apply Nat.eqb_eq in Hl. cbn [den].
    rewrite (IH e (or_introl eq_refl) _ _ _ Hm Ra).
    apply den_ext_on; [|exact Ra]. intros j _. apply rho_of_push_all, Hl.
  - (* ListTensor *)
    destruct c as [|k c]; [discriminate|]. change (expand0 v (k :: c) (ListTensor es) = Some e') in Hm.
    rewrite expand0_ListTensor in Hm. rewrite den_ListTensor.
    destruct (nth_error es k) as [x|] eqn:En; [|discriminate]. apply nth_error_In in En.
    cbn [length rk] in Hr. rewrite forallb_forall in Hr. apply (IH x En _ _ _ Hm (Hr x En)).
  - (* Conditional *)
    apply andb_prop in Hr as [Hr Rf]. apply andb_prop in Hr as [Rc Rt].
    apply bind_inv in Hm as (cn' & Ec & Hm). apply bind2_inv in Hm as (t' & f' & Et & Ef & ->).
    cbn [children] in IH. rewrite cexprs_app in IH. setoid_rewrite in_app_iff in IH.
    rewrite cexpand0_cmapM in Ec.
    rewrite !den_Conditional, (IH e1 ltac:(cbn; auto) _ _ _ Et Rt), (IH e2 ltac:(cbn; auto) _ _ _ Ef Rf),
      (cmapM_denc A env D DX ki _ c0 cn' rho' (rho_of v) s Ec Rc); [reflexivity|].
    intros a a' Ha Ea Ra. apply (IH a (or_introl Ha) _ _ _ Ea Ra).
  - (* Grad *)
    destruct (dv e) eqn:Edv; [|discriminate]. apply (at_comp_den _ _ _ _ _ _ _ Hm).
    cbn [den split_last]. f_equal. destruct c as [|k c]; [discriminate|].
    apply den_ext_on; [rewrite Edv; intros j []|]. rewrite removelast_length. exact Hr.
Qed.

End ExpThm.

Print Assumptions C10_expand_partial.
