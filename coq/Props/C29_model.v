(** * C29 - model of ufl/sorting.py:cmp_expr and of the operand sorting of Sum/Product/Inner

    Hand model (tie T3, checked against /repo on every run by py/props/C29.py).  The model is
    faithful to the code *including* its quirks:
    - [cmp_expr] is a pre-order traversal with an explicit stack: the type codes of a pair are compared
      first, then (operators) the pairs of operands are pushed and the NUMBER of operands is compared,
      and only then the operand pairs are popped - LAST operand pair first;
    - [_cmp_multi_index] walks [zip(a, b)] (truncating to the shorter multi-index) and never looks at
      the lengths;
    - [_cmp_label] is constantly 0, [_cmp_coefficient] compares counts numerically, [_cmp_argument]
      compares (number, part), every other terminal is compared through its [repr] STRING, in which
      counts (Constant) and mesh ids are rendered in decimal ("10" < "9").
    Numbers are binary [N]; the comparator returns [comparison] (Lt/Eq/Gt = -1/0/1). *)

From Coq Require Import String Ascii DecimalString NArith Bool PeanoNat List.
Import ListNotations.
Open Scope N_scope.

(** ** [map] under the hypotheses a nested induction provides: one per element of the first list *)

Lemma map_rel_Forall {A B C} (f : A -> B) (g : A -> C) l :
  Forall (fun x => forall y, f x = f y -> g x = g y) l -> forall l', map f l = map f l' -> map g l = map g l'.
Proof.
  induction 1 as [|x l Hx _ IH]; intros [|y l'] E; try discriminate E; [reflexivity|].
  injection E as E1 E2. simpl. f_equal; auto.
Qed.

Lemma map_rel {A B C} (f : A -> B) (g : A -> C) : (forall x y, f x = f y -> g x = g y) ->
  forall l l', map f l = map f l' -> map g l = map g l'.
Proof. intros Hf l. apply map_rel_Forall, Forall_forall. intros x _. apply Hf. Qed.

Lemma map_inj_Forall {A B} (f : A -> B) l :
  Forall (fun x => forall y, f x = f y -> x = y) l -> forall l', map f l = map f l' -> l = l'.
Proof. intros H l' E. rewrite <- (map_id l), <- (map_id l'). exact (map_rel_Forall f id l H l' E). Qed.

Lemma map_inj {A B} (f : A -> B) : (forall x y, f x = f y -> x = y) ->
  forall l1 l2, map f l1 = map f l2 -> l1 = l2.
Proof. intros Hf l1. apply map_inj_Forall, Forall_forall. intros x _. apply Hf. Qed.

(** ** comparison combinators *)

Definition then_ (c d : comparison) : comparison := match c with Eq => d | _ => c end.

Definition ceqb (c d : comparison) : bool :=
  match c, d with Eq, Eq | Lt, Lt | Gt, Gt => true | _, _ => false end.

Lemma ceqb_eq c d : ceqb c d = true <-> c = d.
Proof. destruct c, d; simpl; split; intro H; try reflexivity; discriminate. Qed.

(** [t3 x y z]: the three results x = cmp a b, y = cmp b c, z = cmp a c are those of a consistent
    total preorder (transitivity of <, of ~, and compatibility of ~ with <). *)
Definition t3 (x y z : comparison) : bool :=
  match x, y with
  | Eq, _ => ceqb z y
  | _, Eq => ceqb z x
  | Lt, Lt => ceqb z Lt
  | Gt, Gt => ceqb z Gt
  | _, _ => true
  end.

Lemma then_opp c d : CompOpp (then_ c d) = then_ (CompOpp c) (CompOpp d).
Proof. destruct c, d; reflexivity. Qed.

Lemma then_assoc a b c : then_ (then_ a b) c = then_ a (then_ b c).
Proof. destruct a, b, c; reflexivity. Qed.

Lemma then_Eq_r c : then_ c Eq = c.
Proof. destruct c; reflexivity. Qed.

Lemma then_eq_Eq c d : then_ c d = Eq <-> c = Eq /\ d = Eq.
Proof. destruct c, d; simpl; intuition discriminate. Qed.

Lemma t3_then x1 y1 z1 x2 y2 z2 :
  t3 x1 y1 z1 = true -> (x1 = Eq -> y1 = Eq -> t3 x2 y2 z2 = true) ->
  t3 (then_ x1 x2) (then_ y1 y2) (then_ z1 z2) = true.
Proof.
  (* x1, y1 decide the three results unless both are Eq *)
  destruct x1, y1; simpl; intros H1 H2; try reflexivity; apply ceqb_eq in H1; subst z1; simpl; try reflexivity.
  - exact (H2 eq_refl eq_refl).
  - destruct x2; reflexivity.
  - destruct x2; reflexivity.
  - destruct y2; reflexivity.
  - destruct y2; reflexivity.
Qed.

Lemma t3_refl_Eq : t3 Eq Eq Eq = true. Proof. reflexivity. Qed.

Lemma ncmp_t3 x y z : t3 (x ?= y) (y ?= z) (x ?= z) = true.
Proof.
  destruct (N.compare_spec x y) as [->|H1|H1]; simpl; [apply ceqb_eq; reflexivity | |];
    destruct (N.compare_spec y z) as [<-|H2|H2]; simpl; try reflexivity; apply ceqb_eq.
  - apply N.compare_lt_iff, H1.
  - apply N.compare_lt_iff, (N.lt_trans _ _ _ H1 H2).
  - apply N.compare_gt_iff, H1.
  - apply N.compare_gt_iff, (N.lt_trans _ _ _ H2 H1).
Qed.

(** ** list comparators *)

Section Lists.
  Context {A : Type}.
  Variable c : A -> A -> comparison.

  (** true lexicographic order (a proper prefix is smaller) - Python's [str] / tuple order *)
  Fixpoint lex (l1 l2 : list A) : comparison :=
    match l1, l2 with
    | [], [] => Eq
    | [], _ :: _ => Lt
    | _ :: _, [] => Gt
    | x :: l1', y :: l2' => then_ (c x y) (lex l1' l2')
    end.

  (** [for i, j in zip(a, b)]: first decision from the left, truncated to the shorter list *)
  Fixpoint zipc (l1 l2 : list A) : comparison :=
    match l1, l2 with
    | x :: l1', y :: l2' => then_ (c x y) (zipc l1' l2')
    | _, _ => Eq
    end.

  (** the operand loop of cmp_expr: pairs are pushed left to right and popped right to left *)
  Fixpoint rzip (l1 l2 : list A) : comparison :=
    match l1, l2 with
    | x :: l1', y :: l2' => then_ (rzip l1' l2') (c x y)
    | _, _ => Eq
    end.

  Lemma lex_zipc l1 l2 :
    lex l1 l2 = then_ (zipc l1 l2) (Nat.compare (length l1) (length l2)).
  Proof.
    revert l2; induction l1 as [|x l1 IH]; destruct l2 as [|y l2]; simpl; try reflexivity.
    rewrite IH, then_assoc. reflexivity.
  Qed.

  Hypothesis c_opp : forall x y, c y x = CompOpp (c x y).

  Lemma zipc_opp l1 l2 : zipc l2 l1 = CompOpp (zipc l1 l2).
  Proof.
    revert l2; induction l1 as [|x l1 IH]; destruct l2 as [|y l2]; simpl; try reflexivity.
    rewrite then_opp, <- IH, <- c_opp. reflexivity.
  Qed.

  Lemma lex_opp l1 l2 : lex l2 l1 = CompOpp (lex l1 l2).
  Proof. rewrite !lex_zipc, then_opp, <- zipc_opp, <- Nat.compare_antisym. reflexivity. Qed.

  Hypothesis c_t3 : forall x y z, t3 (c x y) (c y z) (c x z) = true.

  Lemma lex_t3 l1 l2 l3 : t3 (lex l1 l2) (lex l2 l3) (lex l1 l3) = true.
  Proof.
    revert l2 l3; induction l1 as [|x l1 IH]; destruct l2 as [|y l2]; destruct l3 as [|z l3];
      simpl; try reflexivity.
    - destruct (then_ (c y z) (lex l2 l3)); reflexivity.
    - destruct (then_ (c x y) (lex l1 l2)); reflexivity.
    - apply t3_then; [apply c_t3 | intros _ _; apply IH].
  Qed.
End Lists.

Section ListsEq.
  Context {A B : Type}.
  Variable c : A -> A -> comparison.
  Variable f : A -> B.
  Hypothesis c_eq : forall x y, c x y = Eq <-> f x = f y.

  Lemma lex_eq_iff l1 l2 : lex c l1 l2 = Eq <-> map f l1 = map f l2.
  Proof.
    revert l2; induction l1 as [|x l1 IH]; destruct l2 as [|y l2]; simpl;
      try (split; intro H; try reflexivity; discriminate).
    rewrite then_eq_Eq, c_eq, IH. split.
    - intros [H1 H2]. congruence.
    - intro H. injection H. auto.
  Qed.
End ListsEq.

(** nested-induction versions for the operand loop (hypotheses only for the elements of l1) *)
Section RZip.
  Context {A : Type}.
  Variable c : A -> A -> comparison.

  Lemma rzip_opp l1 :
    Forall (fun x => forall y, c y x = CompOpp (c x y)) l1 ->
    forall l2, rzip c l2 l1 = CompOpp (rzip c l1 l2).
  Proof.
    induction 1 as [|x l1 Hx _ IH]; destruct l2 as [|y l2]; simpl; try reflexivity.
    rewrite then_opp, <- IH, <- Hx. reflexivity.
  Qed.

  (* needs equal lengths: rzip truncates, and [] is Eq to everything *)
  Lemma rzip_t3 l1 :
    Forall (fun x => forall y z, t3 (c x y) (c y z) (c x z) = true) l1 ->
    forall l2 l3, length l1 = length l2 -> length l2 = length l3 ->
    t3 (rzip c l1 l2) (rzip c l2 l3) (rzip c l1 l3) = true.
  Proof.
    induction 1 as [|x l1 Hx _ IH]; intros [|y l2] [|z l3] E1 E2; try discriminate; simpl; [reflexivity|].
    injection E1 as E1. injection E2 as E2. apply t3_then; [apply IH; assumption | intros _ _; apply Hx].
  Qed.
End RZip.

(** ** terminals *)

Inductive idx := Fixed (v : N) | Free (c : N).          (* FixedIndex(value) / Index(count) *)
Inductive cclass := CConstant | CMesh.                   (* counters that appear inside repr strings *)
Inductive piece := PLit (s : string) | PCnt (k : cclass) (n : N).

Inductive tdata :=
| TMulti (l : list idx)                          (* MultiIndex *)
| TArg (number : N) (part : option N) (fs : N)   (* Argument; fs = function space (not inspected) *)
| TCoef (count : N) (fs : N)                     (* Coefficient; fs not inspected *)
| TLabel (count : N)                             (* Label *)
| TRepr (ps : list piece)                        (* every other terminal: pieces of its repr *)
| TGeo (key : string) (mesh : N).                (* geometric quantity under the repaired comparator
                                                    (fixes/C12-geometry-cmp-by-domain-id.diff): repr of the
                                                    coordinate element, then the mesh id as a NUMBER *)

Definition dec (n : N) : string := NilZero.string_of_uint (N.to_uint n).
Definition render_piece (p : piece) : string := match p with PLit s => s | PCnt _ n => dec n end.
Definition render (ps : list piece) : string := String.concat "" (map render_piece ps).
Definition codes (s : string) : list N := map N_of_ascii (list_ascii_of_string s).
Definition cmp_str (s1 s2 : string) : comparison := lex N.compare (codes s1) (codes s2).

Definition cmp_idx (i j : idx) : comparison :=
  match i, j with
  | Fixed x, Fixed y => x ?= y
  | Fixed _, Free _ => Lt
  | Free _, Fixed _ => Gt
  | Free _, Free _ => Eq
  end.

Definition cmp_opt (p q : option N) : comparison :=
  match p, q with
  | None, None => Eq
  | None, Some _ => Lt     (* Python: TypeError (None < int); outside the modelled domain *)
  | Some _, None => Gt
  | Some x, Some y => x ?= y
  end.

Definition kind (d : tdata) : N :=
  match d with TMulti _ => 0 | TArg _ _ _ => 1 | TCoef _ _ => 2 | TLabel _ => 3 | TRepr _ => 4 | TGeo _ _ => 5 end.

(** [strict = false]: the pinned tree.  [strict = true]: /repo, whose [_cmp_multi_index] also compares
    the lengths after the zip loop (fixes/C29-multiindex-length.diff). *)
Definition cmp_tdata (strict : bool) (d e : tdata) : comparison :=
  match d, e with
  | TMulti l1, TMulti l2 => if strict then lex cmp_idx l1 l2 else zipc cmp_idx l1 l2
  | TArg n p _, TArg m q _ => then_ (n ?= m) (cmp_opt p q)
  | TCoef x _, TCoef y _ => x ?= y
  | TLabel _, TLabel _ => Eq
  | TRepr ps, TRepr qs => cmp_str (render ps) (render qs)
  | TGeo k1 m1, TGeo k2 m2 => then_ (cmp_str k1 k2) (m1 ?= m2)
  | _, _ => kind d ?= kind e
  end.

(** ** expression trees and cmp_expr *)

Inductive tree := Leaf (tc : N) (d : tdata) | Node (tc : N) (ops : list tree).

Fixpoint cmpg (strict : bool) (a b : tree) {struct a} : comparison :=
  match a, b with
  | Leaf ta da, Leaf tb db => then_ (ta ?= tb) (cmp_tdata strict da db)
  | Leaf ta _, Node tb _ => then_ (ta ?= tb) Lt
  | Node ta _, Leaf tb _ => then_ (ta ?= tb) Gt
  | Node ta oa, Node tb ob =>
      then_ (ta ?= tb)
            (then_ (Nat.compare (length oa) (length ob)) (rzip (cmpg strict) oa ob))
  end.

Definition cmp : tree -> tree -> comparison := cmpg false.     (* ufl.sorting.cmp_expr *)
Definition cmpS : tree -> tree -> comparison := cmpg true.     (* with the repair *)

Lemma tree_ind' (P : tree -> Prop) :
  (forall tc d, P (Leaf tc d)) ->
  (forall tc ops, Forall P ops -> P (Node tc ops)) ->
  forall t, P t.
Proof.
  intros HL HN. fix IH 1. intros [tc d | tc ops]; [apply HL | apply HN].
  induction ops as [|x ops IHops]; constructor; [apply IH | exact IHops].
Qed.

(** ** antisymmetry (all trees, both comparators) *)

Lemma cmp_idx_opp i j : cmp_idx j i = CompOpp (cmp_idx i j).
Proof. destruct i, j; simpl; try reflexivity. apply N.compare_antisym. Qed.

Lemma cmp_opt_opp p q : cmp_opt q p = CompOpp (cmp_opt p q).
Proof. destruct p, q; simpl; try reflexivity. apply N.compare_antisym. Qed.

Lemma cmp_str_opp s1 s2 : cmp_str s2 s1 = CompOpp (cmp_str s1 s2).
Proof. unfold cmp_str. apply lex_opp. intros; apply N.compare_antisym. Qed.

Lemma cmp_tdata_opp s d e : cmp_tdata s e d = CompOpp (cmp_tdata s d e).
Proof.
  destruct d, e; simpl; try reflexivity.
  - destruct s; [apply lex_opp | apply zipc_opp]; apply cmp_idx_opp.
  - rewrite then_opp, <- N.compare_antisym, <- cmp_opt_opp. reflexivity.
  - apply N.compare_antisym.
  - apply cmp_str_opp.
  - rewrite then_opp, <- N.compare_antisym, <- cmp_str_opp. reflexivity.
Qed.

Theorem C29_cmp_antisym : forall s a b, cmpg s b a = CompOpp (cmpg s a b).
Proof.
  intros s a. induction a as [ta da | ta oa IH] using tree_ind'; intros [tb db | tb ob]; simpl;
    rewrite ?then_opp, <- ?N.compare_antisym; try reflexivity.
  - rewrite <- cmp_tdata_opp. reflexivity.
  - rewrite <- (rzip_opp _ _ IH), Nat.compare_antisym. reflexivity.
Qed.

Corollary C29_cmp_refl : forall s a, cmpg s a a = Eq.
Proof. intros s a. pose proof (C29_cmp_antisym s a a) as H. destruct (cmpg s a a); simpl in H; congruence. Qed.

(** ** consistency (transitivity) of the repaired comparator, for ALL trees *)

Lemma cmp_idx_t3 i j k : t3 (cmp_idx i j) (cmp_idx j k) (cmp_idx i k) = true.
Proof. destruct i, j, k; simpl; try reflexivity; try apply ncmp_t3; destruct (_ ?= _); reflexivity. Qed.

Lemma cmp_opt_t3 p q r : t3 (cmp_opt p q) (cmp_opt q r) (cmp_opt p r) = true.
Proof. destruct p, q, r; simpl; try reflexivity; try apply ncmp_t3; destruct (_ ?= _); reflexivity. Qed.

Lemma cmp_str_t3 a b c : t3 (cmp_str a b) (cmp_str b c) (cmp_str a c) = true.
Proof. apply lex_t3. apply ncmp_t3. Qed.

(** terminal data of different kinds are ordered by kind *)
Lemma cmp_tdata_kind s d e : cmp_tdata s d e = then_ (kind d ?= kind e) (cmp_tdata s d e).
Proof. destruct d, e; reflexivity. Qed.

Lemma cmp_tdata_t3 d e f : t3 (cmp_tdata true d e) (cmp_tdata true e f) (cmp_tdata true d f) = true.
Proof.
  rewrite (cmp_tdata_kind _ d e), (cmp_tdata_kind _ e f), (cmp_tdata_kind _ d f).
  apply t3_then; [apply ncmp_t3 | intros H1 H2].
  destruct d, e; try discriminate H1; destruct f; try discriminate H2; simpl.
  - apply lex_t3, cmp_idx_t3.
  - apply t3_then; [apply ncmp_t3 | intros _ _; apply cmp_opt_t3].
  - apply ncmp_t3.
  - reflexivity.
  - apply cmp_str_t3.
  - apply t3_then; [apply cmp_str_t3 | intros _ _; apply ncmp_t3].
Qed.

Theorem C29_cmpS_consistent : forall a b c, t3 (cmpS a b) (cmpS b c) (cmpS a c) = true.
Proof.
  unfold cmpS. intro a. induction a as [ta da | ta oa IH] using tree_ind';
    intros [tb db | tb ob] [tc dc | tc oc]; simpl;
    (apply t3_then; [apply ncmp_t3 | intros _ _]); try reflexivity;
    (* a leaf is below a node: two of the three results are then known, whatever the third *)
    try (destruct (cmp_tdata _ _ _); reflexivity); try (destruct (then_ _ _); reflexivity).
  - apply cmp_tdata_t3.
  - apply t3_then; [rewrite !Nat2N.inj_compare; apply ncmp_t3 | intros H1 H2].
    apply Nat.compare_eq in H1. apply Nat.compare_eq in H2. apply (rzip_t3 _ _ IH); assumption.
Qed.

(** ** where cmp_expr and the repaired comparator agree *)

Definition mi_ok (l1 l2 : list idx) : bool :=
  Nat.eqb (length l1) (length l2) || negb (ceqb (zipc cmp_idx l1 l2) Eq).

(** [aligned a b]: no two multi-indices of different length, undecided on their common prefix, sit
    at corresponding positions of a and b (below nodes of equal type code and arity). *)
Fixpoint aligned (a b : tree) {struct a} : bool :=
  match a, b with
  | Leaf ta (TMulti l1), Leaf tb (TMulti l2) => negb (ta =? tb) || mi_ok l1 l2
  | Node ta oa, Node tb ob =>
      negb (ta =? tb) || negb (Nat.eqb (length oa) (length ob)) ||
      (fix go (l1 l2 : list tree) {struct l1} : bool :=
         match l1, l2 with
         | x :: l1', y :: l2' => aligned x y && go l1' l2'
         | _, _ => true
         end) oa ob
  | _, _ => true
  end.

Lemma mi_ok_agree l1 l2 : mi_ok l1 l2 = true -> zipc cmp_idx l1 l2 = lex cmp_idx l1 l2.
Proof.
  unfold mi_ok. intro H. rewrite lex_zipc. apply orb_prop in H as [H | H].
  - apply Nat.eqb_eq in H. rewrite H, Nat.compare_refl, then_Eq_r. reflexivity.
  - destruct (zipc cmp_idx l1 l2); simpl in *; try reflexivity; discriminate.
Qed.

Theorem C29_cmp_agree : forall a b, aligned a b = true -> cmp a b = cmpS a b.
Proof.
  unfold cmp, cmpS. intro a. induction a as [ta da | ta oa IH] using tree_ind';
    intros [tb db | tb ob] H; simpl in *; try reflexivity.
  - destruct da, db; simpl; try reflexivity.
    destruct (N.compare_spec ta tb) as [E | E | E]; simpl; try reflexivity.
    subst. rewrite N.eqb_refl in H. simpl in H. rewrite (mi_ok_agree _ _ H). reflexivity.
  - destruct (N.compare_spec ta tb) as [E | E | E]; simpl; try reflexivity.
    subst. rewrite N.eqb_refl in H. simpl in H.
    destruct (Nat.compare_spec (length oa) (length ob)) as [E | E | E]; simpl; try reflexivity.
    rewrite E, Nat.eqb_refl in H. simpl in H. clear E.
    revert ob H. induction IH as [|x l1 Hx _ IHl]; destruct ob as [|y l2]; simpl; try reflexivity.
    intro H. apply andb_prop in H as [H1 H2].
    rewrite (Hx y H1), (IHl l2 H2). reflexivity.
Qed.

(** transitivity of cmp_expr itself: holds on aligned triples ... *)
Theorem C29_cmp_consistent_partial : forall a b c,
  aligned a b = true -> aligned b c = true -> aligned a c = true ->
  t3 (cmp a b) (cmp b c) (cmp a c) = true.
Proof.
  intros a b c H1 H2 H3. rewrite (C29_cmp_agree _ _ H1), (C29_cmp_agree _ _ H2), (C29_cmp_agree _ _ H3).
  apply C29_cmpS_consistent.
Qed.

(** ... in particular when all multi-indices of the three trees have one common length *)
Fixpoint uniform (n : nat) (a : tree) : bool :=
  match a with
  | Leaf _ (TMulti l) => Nat.eqb (length l) n
  | Leaf _ _ => true
  | Node _ ops => forallb (uniform n) ops
  end.

Lemma uniform_aligned n : forall a b, uniform n a = true -> uniform n b = true -> aligned a b = true.
Proof.
  intro a. induction a as [ta da | ta oa IH] using tree_ind'; intros [tb db | tb ob] Ha Hb;
    simpl in *; try reflexivity.
  - destruct da; try reflexivity. destruct db; try reflexivity.
    apply Nat.eqb_eq in Ha. apply Nat.eqb_eq in Hb. unfold mi_ok.
    rewrite Ha, Hb, Nat.eqb_refl. simpl. apply orb_true_r.
  - destruct da; reflexivity.
  - apply orb_true_iff. right.
    revert ob Ha Hb. induction IH as [|x l1 Hx _ IHl]; destruct ob as [|y l2]; simpl; try reflexivity.
    intros [Ha1 Ha2]%andb_prop [Hb1 Hb2]%andb_prop. rewrite (Hx y Ha1 Hb1). simpl. apply IHl; assumption.
Qed.

Corollary C29_cmp_consistent_equal_length : forall n a b c,
  uniform n a = true -> uniform n b = true -> uniform n c = true ->
  t3 (cmp a b) (cmp b c) (cmp a c) = true.
Proof.
  intros n a b c Ha Hb Hc.
  apply C29_cmp_consistent_partial; eapply uniform_aligned; eassumption.
Qed.

(** ... and is refuted in general: A[0,1] > B[0] > C[0,2] > A[0,1] (Indexed = node, the multi-index
    is its LAST operand and therefore compared first; A, B, C coefficients with counts 4 > 3 > 2).
    The type codes are irrelevant (any tcI, tcM, tcC). *)
Definition wit_indexed (tcI tcM tcC : N) (count : N) (mi : list idx) : tree :=
  Node tcI [Leaf tcC (TCoef count 0); Leaf tcM (TMulti mi)].

Theorem C29_cmp_consistent_refuted : forall tcI tcM tcC,
  let a := wit_indexed tcI tcM tcC 4 [Fixed 0; Fixed 1] in
  let b := wit_indexed tcI tcM tcC 3 [Fixed 0] in
  let c := wit_indexed tcI tcM tcC 2 [Fixed 0; Fixed 2] in
  cmp a b = Gt /\ cmp b c = Gt /\ cmp c a = Gt /\ t3 (cmp a b) (cmp b c) (cmp a c) = false.
Proof.
  intros. unfold cmp, a, b, c, wit_indexed. simpl. rewrite !N.compare_refl. simpl. repeat split.
Qed.

(** ** cmp = Eq  <->  equal up to the data the comparator does not look at *)

Definition erase_idx (i : idx) : idx := match i with Fixed v => Fixed v | Free _ => Free 0 end.
Definition erase_tdata (d : tdata) : tdata :=
  match d with
  | TMulti l => TMulti (map erase_idx l)
  | TArg n p _ => TArg n p 0
  | TCoef c _ => TCoef c 0
  | TLabel _ => TLabel 0
  | TRepr ps => TRepr [PLit (render ps)]
  | TGeo k m => TGeo k m
  end.
Fixpoint erase (a : tree) : tree :=
  match a with
  | Leaf tc d => Leaf tc (erase_tdata d)
  | Node tc ops => Node tc (map erase ops)
  end.

Lemma cmp_idx_eq i j : cmp_idx i j = Eq <-> erase_idx i = erase_idx j.
Proof.
  destruct i, j; simpl; try (split; intro H; try reflexivity; discriminate).
  rewrite N.compare_eq_iff. split; congruence.
Qed.

Lemma cmp_opt_eq p q : cmp_opt p q = Eq <-> p = q.
Proof.
  destruct p, q; simpl; try (split; intro H; try reflexivity; discriminate).
  rewrite N.compare_eq_iff. split; congruence.
Qed.

Lemma codes_inj s1 s2 : codes s1 = codes s2 -> s1 = s2.
Proof.
  unfold codes. intro H. apply map_inj in H.
  - rewrite <- (string_of_list_ascii_of_string s1), H. apply string_of_list_ascii_of_string.
  - intros x y E. rewrite <- (ascii_N_embedding x), E. apply ascii_N_embedding.
Qed.

Lemma cmp_str_eq s1 s2 : cmp_str s1 s2 = Eq <-> s1 = s2.
Proof.
  unfold cmp_str. rewrite (lex_eq_iff N.compare (fun x => x)) by (intros; apply N.compare_eq_iff).
  rewrite !map_id. split; [apply codes_inj | congruence].
Qed.

Lemma render_single s : render [PLit s] = s.
Proof. unfold render. simpl. reflexivity. Qed.

Lemma cmp_tdata_strict_eq d e : cmp_tdata true d e = Eq <-> erase_tdata d = erase_tdata e.
Proof.
  destruct d, e; cbn [cmp_tdata erase_tdata kind]; try (split; discriminate).
  - rewrite (lex_eq_iff cmp_idx erase_idx) by apply cmp_idx_eq. split; congruence.
  - rewrite then_eq_Eq, N.compare_eq_iff, cmp_opt_eq. split; [intros [-> ->]; reflexivity | intro H; injection H; auto].
  - rewrite N.compare_eq_iff. split; congruence.
  - split; reflexivity.
  - rewrite cmp_str_eq. split; [intros ->; reflexivity | intro H; injection H; auto].
  - rewrite then_eq_Eq, cmp_str_eq, N.compare_eq_iff. split; [intros [-> ->]; reflexivity | intro H; injection H; auto].
Qed.

Lemma rzip_eq_map {A B} (c : A -> A -> comparison) (f : A -> B) l1 :
  Forall (fun x => forall y, c x y = Eq <-> f x = f y) l1 ->
  forall l2, length l1 = length l2 -> (rzip c l1 l2 = Eq <-> map f l1 = map f l2).
Proof.
  induction 1 as [|x l1 Hx _ IH]; destruct l2 as [|y l2]; simpl; intro HL; try discriminate.
  - split; reflexivity.
  - injection HL as HL. rewrite then_eq_Eq, Hx, (IH l2 HL). split.
    + intros [H1 H2]; congruence.
    + intro H; injection H; auto.
Qed.

Theorem C29_cmpS_eq_iff : forall a b, cmpS a b = Eq <-> erase a = erase b.
Proof.
  unfold cmpS. intro a. induction a as [ta da | ta oa IH] using tree_ind';
    intros [tb db | tb ob]; simpl.
  - rewrite then_eq_Eq, N.compare_eq_iff, cmp_tdata_strict_eq. split.
    + intros [-> ->]; reflexivity.
    + intro H; injection H; auto.
  - split; [| discriminate]. destruct (ta ?= tb); discriminate.
  - split; [| discriminate]. destruct (ta ?= tb); discriminate.
  - rewrite !then_eq_Eq, N.compare_eq_iff. split.
    + intros [-> [HL HR]]. apply Nat.compare_eq in HL.
      f_equal. apply (rzip_eq_map _ erase _ IH ob HL). exact HR.
    + intro H. injection H as H1 H2. split; [exact H1|].
      assert (HL : length oa = length ob).
      { rewrite <- (map_length erase oa), <- (map_length erase ob), H2. reflexivity. }
      split; [rewrite HL; apply Nat.compare_refl |].
      apply (rzip_eq_map _ erase _ IH ob HL). exact H2.
Qed.

Theorem C29_cmp_eq_iff_partial : forall a b,
  aligned a b = true -> (cmp a b = Eq <-> erase a = erase b).
Proof. intros a b H. rewrite (C29_cmp_agree _ _ H). apply C29_cmpS_eq_iff. Qed.

(** cmp_expr returns 0 for two multi-indices one of which is a prefix of the other *)
Theorem C29_cmp_eq_iff_refuted : forall tcM,
  let a := Leaf tcM (TMulti [Fixed 0]) in
  let b := Leaf tcM (TMulti [Fixed 0; Fixed 1]) in
  cmp a b = Eq /\ erase a <> erase b.
Proof. intros. unfold cmp, a, b. simpl. rewrite N.compare_refl. split; [reflexivity | discriminate]. Qed.

(** ** Sum.__new__ / Product.__new__ / Inner.__new__ : operand sorting *)

Definition is_lt (c : comparison) : bool := match c with Lt => true | _ => false end.

(** [sorted_expr((a, b))] = CPython's list.sort on two elements with key=cmp_to_key(cmp_expr):
    count_run asks once whether [K(b) < K(a)], i.e. [cmp_expr(b, a) < 0], and reverses if so.
    ([s] selects the comparator: false = the code as it is, true = with the multi-index repair.) *)
Definition sort2g (s : bool) (a b : tree) : tree * tree :=
  if is_lt (cmpg s b a) then (b, a) else (a, b).
Definition sort2 := sort2g false.

Theorem C29_sort2_swap : forall s a b, cmpg s a b <> Eq -> sort2g s a b = sort2g s b a.
Proof.
  intros s a b H. unfold sort2g. rewrite (C29_cmp_antisym s a b).
  destruct (cmpg s a b); simpl; try reflexivity. contradiction.
Qed.

Section Ctors.
  Variable s : bool.
  Variables tc_sum tc_prod tc_inner : N.
  (** Zero / ScalarValue recognisers, constant folding, Zero with merged free indices, Conj.__new__:
      arbitrary functions; only the stated commutation laws are used *)
  Variables is_zero is_scalar is_one : tree -> bool.
  Variables fold_add fold_mul zero_merge : tree -> tree -> tree.
  Variable mk_conj : tree -> tree.
  Hypothesis fold_add_comm : forall a b, fold_add a b = fold_add b a.
  Hypothesis fold_mul_comm : forall a b, fold_mul a b = fold_mul b a.
  Hypothesis zero_merge_comm : forall a b, zero_merge a b = zero_merge b a.

  Definition mk_sum (a b : tree) : tree :=
    if is_zero a then b else if is_zero b then a else
    if is_scalar a && is_scalar b then fold_add a b
    else if is_scalar a then Node tc_sum [a; b]
    else if is_scalar b then Node tc_sum [b; a]
    else let (x, y) := sort2g s a b in Node tc_sum [x; y].

  Definition mk_product (a b : tree) : tree :=
    if is_zero a || is_zero b then zero_merge a b else
    if is_scalar a && is_scalar b then fold_mul a b
    else if is_scalar a then (if is_one a then b else Node tc_prod [a; b])
    else if is_scalar b then (if is_one b then a else Node tc_prod [b; a])
    else let (x, y) := sort2g s a b in Node tc_prod [x; y].

  (** Inner.__new__ for non-scalar operands: [if (a, b) != tuple(sorted_expr((a, b))): return
      Conj(Inner(b, a))]; the recursion is modelled with fuel (it terminates by antisymmetry). *)
  Fixpoint mk_inner (fuel : nat) (a b : tree) : option tree :=
    match fuel with
    | O => None
    | S f =>
        if is_zero a || is_zero b then Some (zero_merge a b)
        else if is_lt (cmpg s b a) then option_map mk_conj (mk_inner f b a)
        else Some (Node tc_inner [a; b])
    end.

  Theorem C29_sum_swap : forall a b,
    cmpg s a b <> Eq -> is_zero a && is_zero b = false -> mk_sum a b = mk_sum b a.
  Proof.
    intros a b H Hz. unfold mk_sum. rewrite (C29_sort2_swap s a b H).
    destruct (is_zero a), (is_zero b); try reflexivity; try discriminate.
    rewrite (fold_add_comm a b). destruct (is_scalar a), (is_scalar b); reflexivity.
  Qed.

  Theorem C29_product_swap : forall a b, cmpg s a b <> Eq -> mk_product a b = mk_product b a.
  Proof.
    intros a b H. unfold mk_product. rewrite (C29_sort2_swap s a b H).
    rewrite (zero_merge_comm a b), (fold_mul_comm a b), (orb_comm (is_zero a)).
    destruct (is_zero b || is_zero a); try reflexivity.
    destruct (is_scalar a), (is_scalar b); reflexivity.
  Qed.

  (** both orders build the SAME Inner node; the order that disagrees with the canonical one is
      wrapped in Conj (inner(a,b) = conj(inner(b,a))), and two levels of recursion always suffice *)
  Theorem C29_inner_swap : forall a b,
    cmpg s a b = Lt -> is_zero a || is_zero b = false ->
    mk_inner 2 a b = Some (Node tc_inner [a; b]) /\
    mk_inner 2 b a = Some (mk_conj (Node tc_inner [a; b])).
  Proof.
    intros a b H Hz. pose proof (C29_cmp_antisym s a b) as Ha.
    rewrite H in Ha. simpl in Ha. simpl. rewrite Hz, (orb_comm (is_zero b)), Hz, Ha, H. simpl.
    split; reflexivity.
  Qed.

  Theorem C29_inner_terminates : forall a b, mk_inner 2 a b <> None.
  Proof.
    intros a b. pose proof (C29_cmp_antisym s b a) as Ha. simpl.
    destruct (is_zero a || is_zero b) eqn:Hz; [discriminate|].
    destruct (cmpg s b a) eqn:Hb; simpl; try discriminate.
    rewrite (orb_comm (is_zero b)), Hz. simpl in Ha. rewrite Ha. simpl. discriminate.
  Qed.
End Ctors.

(** ** executable checkers used by the generated correspondence files (coq/Gen/C29_*.v) *)

Definition tc_of (t : tree) : N := match t with Leaf tc _ | Node tc _ => tc end.
Definition tc_in (l : list N) (t : tree) : bool := existsb (N.eqb (tc_of t)) l.

(** a pair case: the real cmp_expr(a,b) and cmp_expr(b,a) (as Lt/Eq/Gt for -1/0/1) equal the model's *)
Definition check_pair (s : bool) (a b : tree) (rab rba : comparison) : bool :=
  ceqb (cmpg s a b) rab && ceqb (cmpg s b a) rba.

Definition triple_aligned (a b c : tree) : bool := aligned a b && aligned b c && aligned a c.

(** a triple case: the real results equal the model's, the harness' class flag (aligned) is the
    model's, and (redundantly with the theorems) aligned triples are consistent *)
Definition check_triple (s : bool) (a b c : tree) (rab rbc rac : comparison) (al : bool) : bool :=
  ceqb (cmpg s a b) rab && ceqb (cmpg s b c) rbc && ceqb (cmpg s a c) rac &&
  Bool.eqb (triple_aligned a b c) al &&
  (if s then t3 (cmpg s a b) (cmpg s b c) (cmpg s a c)
   else implb al (t3 (cmpg s a b) (cmpg s b c) (cmpg s a c))).

(** the constructors on operands that are not Zero (and not both literals; no literal 1).  On such operands
    the folding functions are never reached, and [fun a _ => a] stands in for them.  These stand-ins do
    not obey the commutation laws of Section Ctors, so C29_sum_swap / C29_product_swap are not instances
    at these models: that the real results do not depend on the operand order is tested by the harness on
    the real constructors, case by case. *)
Definition sum_model (s : bool) (tcS : N) (scalars : list N) (a b : tree) : tree :=
  mk_sum s tcS (fun _ => false) (tc_in scalars) (fun a _ => a) a b.
Definition product_model (s : bool) (tcP : N) (scalars : list N) (a b : tree) : tree :=
  mk_product s tcP (fun _ => false) (tc_in scalars) (fun _ => false) (fun a _ => a) (fun a _ => a) a b.
Definition inner_model (s : bool) (tcI tcC : N) (a b : tree) : option tree :=
  mk_inner s tcI (fun _ => false) (fun a _ => a) (fun t => Node tcC [t]) 2 a b.

Print Assumptions C29_cmp_antisym.
Print Assumptions C29_cmpS_consistent.
Print Assumptions C29_cmp_agree.
Print Assumptions C29_cmp_consistent_partial.
Print Assumptions C29_cmp_consistent_equal_length.
Print Assumptions C29_cmp_consistent_refuted.
Print Assumptions C29_cmpS_eq_iff.
Print Assumptions C29_cmp_eq_iff_partial.
Print Assumptions C29_cmp_eq_iff_refuted.
Print Assumptions C29_sort2_swap.
Print Assumptions C29_sum_swap.
Print Assumptions C29_product_swap.
Print Assumptions C29_inner_swap.
Print Assumptions C29_inner_terminates.
