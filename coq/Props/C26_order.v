(* C26 - the cell ordering on the UNION of the cell classes (Cell and TensorProductCell).
   AbstractCell.__lt__: cells of different classes are ordered by class name; cells of the same class by
   topological dimension and then by the class's _lt (Cell: cell name; TensorProductCell: the tuple of the
   factors' hash data, i.e. the list of factor names, compared like Python tuples).  Proved for ALL keys
   (class name, tdim, list of names): this relation is a strict total order. *)
Require Import List Bool Arith Lia.
Require Import UFLV.Props.Order UFLV.Props.C26_model.
Import ListNotations.

Section Lex.
  Variable A : Type.
  Variables ltb eqb : A -> A -> bool.
  Hypothesis eqb_eq : forall a b, eqb a b = true <-> a = b.
  Hypothesis ltb_irrefl : forall a, ltb a a = false.
  Hypothesis ltb_trans : forall a b c, ltb a b = true -> ltb b c = true -> ltb a c = true.

  (* Python's tuple < tuple (and str < str): lexicographic, a proper prefix is smaller; this is Order.lexb,
     which also has transitivity and totality *)
  Fixpoint lex (a b : list A) : bool :=
    match a, b with
    | [], [] => false
    | [], _ :: _ => true
    | _ :: _, [] => false
    | x :: a', y :: b' => if ltb x y then true else if eqb x y then lex a' b' else false
    end.

  Lemma lex_irrefl a : lex a a = false.
  Proof using eqb_eq ltb_irrefl. exact (lexb_irrefl ltb eqb eqb_eq ltb_irrefl a). Qed.

  Lemma lex_asym a b : lex a b = true -> lex b a = false.
  Proof using eqb_eq ltb_irrefl ltb_trans. exact (strict_asym lex lex_irrefl (lexb_trans ltb eqb eqb_eq ltb_trans) a b). Qed.
End Lex.

(* tuples of names *)
Definition lname_ltb : list name -> list name -> bool := lex name name_ltb name_eqb.

Lemma lname_strict_total : strict_total lname_ltb.
Proof. exact (lexb_strict_total name_ltb name_eqb name_eqb_eq name_strict_total). Qed.

(* key of a cell of any class: class name, topological dimension, list of (factor) names *)
Definition ckey := (name * (nat * list name))%type.
Definition kcls (k : ckey) := fst k.
Definition kdim (k : ckey) := fst (snd k).
Definition kdat (k : ckey) := snd (snd k).

Definition all_ltb (a b : ckey) : bool :=
  if name_eqb (kcls a) (kcls b)
  then (if negb (Nat.eqb (kdim a) (kdim b)) then Nat.ltb (kdim a) (kdim b) else lname_ltb (kdat a) (kdat b))
  else name_ltb (kcls a) (kcls b).

Lemma all_strict_total : strict_total all_ltb.
Proof.
  apply (strict_total_ext (lexprod name_ltb name_eqb (lexprod Nat.ltb Nat.eqb lname_ltb))).
  - intros [ca [da na]] [cb [db nb]]. unfold all_ltb, lexprod, kcls, kdim, kdat; cbn [fst snd].
    destruct (name_eqb ca cb), (Nat.eqb da db); reflexivity.
  - apply lexprod_strict_total; [exact name_eqb_eq | exact name_strict_total|].
    apply lexprod_strict_total; [exact Nat.eqb_eq | exact nat_strict_total | exact lname_strict_total].
Qed.

Theorem C26_all_lt_irrefl k : all_ltb k k = false.
Proof. exact (st_irrefl all_strict_total k). Qed.

Theorem C26_all_lt_trans a b c : all_ltb a b = true -> all_ltb b c = true -> all_ltb a c = true.
Proof. exact (st_trans all_strict_total a b c). Qed.

Theorem C26_all_lt_total a b : a <> b -> all_ltb a b = true \/ all_ltb b a = true.
Proof. exact (st_total all_strict_total a b). Qed.

Theorem C26_all_lt_asym a b : all_ltb a b = true -> all_ltb b a = false.
Proof. exact (strict_asym _ C26_all_lt_irrefl C26_all_lt_trans a b). Qed.

(* A strictly increasing list decides every comparison among its members by their places: the whole matrix
   of a list costs one comparison per neighbouring pair of an increasing enumeration. *)
Section Chain.
  Context {A : Type} (ltb : A -> A -> bool).
  Hypothesis ltb_irrefl : forall a, ltb a a = false.
  Hypothesis ltb_trans : forall a b c, ltb a b = true -> ltb b c = true -> ltb a c = true.

  Fixpoint chain (s : list A) : bool :=
    match s with
    | a :: (b :: _) as t => ltb a b && chain t
    | _ => true
    end.

  Lemma chain_head a t d : chain (a :: t) = true -> forall j, j < length t -> ltb a (nth j t d) = true.
  Proof using ltb_trans.
    revert a. induction t as [|b t IH]; intros a C j Hj; [inversion Hj|].
    cbn [chain] in C. apply andb_prop in C as [Hab C].
    destruct j as [|j]; [exact Hab|].
    cbn [nth]. apply (ltb_trans _ b); [exact Hab|]. apply IH; [exact C|]. cbn [length] in Hj. lia.
  Qed.

  Lemma chain_lt s d : chain s = true -> forall i j, i < j -> j < length s -> ltb (nth i s d) (nth j s d) = true.
  Proof using ltb_trans.
    induction s as [|a t IH]; intros C i j Hij Hj; [inversion Hj|].
    destruct j as [|j]; [inversion Hij|]. cbn [length] in Hj.
    destruct i as [|i]; cbn [nth].
    - apply chain_head; [exact C | lia].
    - apply IH; [|lia|lia]. destruct t; [reflexivity|]. cbn [chain] in C. apply andb_prop in C. apply C.
  Qed.

  Lemma chain_decides s d : chain s = true -> forall i j, i < length s -> j < length s ->
    ltb (nth i s d) (nth j s d) = Nat.ltb i j.
  Proof using ltb_irrefl ltb_trans.
    intros C i j Hi Hj. destruct (Nat.ltb_spec i j) as [H|H]; [apply chain_lt; assumption|].
    destruct (Nat.eq_dec i j) as [->|N]; [apply ltb_irrefl|].
    apply (strict_asym ltb ltb_irrefl ltb_trans), chain_lt; [exact C | lia | exact Hi].
  Qed.

  (* p: places in l of an increasing enumeration of its members; r: for each member of l, its place in p *)
  Lemma matrix_by_ranks l d p r M :
    chain (map (fun k => nth k l d) p) = true ->
    length r = length l ->
    forallb (fun i => Nat.ltb (nth i r 0) (length p) && Nat.eqb (nth (nth i r 0) p 0) i) (seq 0 (length l)) = true ->
    map (fun i => map (Nat.ltb i) r) r = M ->
    map (fun a => map (ltb a) l) l = M.
  Proof using ltb_irrefl ltb_trans.
    set (s := map (fun k => nth k l d) p). intros C Lr B <-. rewrite forallb_forall in B.
    assert (Bi : forall i, i < length l -> nth i r 0 < length p /\ nth (nth i r 0) p 0 = i).
    { intros i Hi. specialize (B i). rewrite andb_true_iff, Nat.ltb_lt, Nat.eqb_eq in B. apply B, in_seq. lia. }
    assert (Ls : length s = length p) by apply map_length.
    assert (L : l = map (fun i => nth i s d) r).
    { apply (nth_ext _ _ d d); [rewrite map_length; symmetry; exact Lr|]. intros i Hi.
      destruct (Bi i Hi) as [Hp Hq]. transitivity (nth (nth i r 0) s d).
      - unfold s. rewrite (nth_indep (map _ p) d (nth 0 l d)) by (rewrite map_length; exact Hp).
        rewrite (map_nth (fun k => nth k l d)), Hq. reflexivity.
      - rewrite (nth_indep (map _ r) d (nth 0 s d)) by (rewrite map_length; lia).
        rewrite (map_nth (fun i => nth i s d)). reflexivity. }
    assert (Br : forall k, In k r -> k < length s).
    { intros k Hk. apply (In_nth _ _ 0) in Hk as (n & Hn & <-). rewrite Ls. apply Bi. lia. }
    rewrite L, map_map. apply map_ext_in. intros i Hi.
    rewrite map_map. apply map_ext_in. intros j Hj.
    apply chain_decides; [exact C | apply Br, Hi | apply Br, Hj].
  Qed.
End Chain.

(* restricted to one class it is the order of C26_model *)
Lemma C26_all_lt_same_class cls d1 n1 d2 n2 :
  all_ltb (cls, (d1, [n1])) (cls, (d2, [n2])) = cell_ltb (d1, n1) (d2, n2).
Proof.
  unfold all_ltb, cell_ltb, kcls, kdim, kdat; cbn [fst snd]. rewrite (lex_eqb_refl _ name_eqb_eq).
  destruct (negb (Nat.eqb d1 d2)); [reflexivity|].
  unfold lname_ltb; cbn [lex]. destruct (name_ltb n1 n2); [reflexivity|]. destruct (name_eqb n1 n2); reflexivity.
Qed.

Print Assumptions C26_all_lt_trans.
Print Assumptions C26_all_lt_total.
