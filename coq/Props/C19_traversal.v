(* C19 - the post-order traversals of ufl/corealg/traversal.py as instances of the machine of
   C19_post.v, and the traversal theorems for ALL trees. *)
Require Import List Arith Lia Bool.
Require Import UFLV.Props.C19_tree UFLV.Props.C19_post.
Import ListNotations.

Definition no_cut : nat -> bool := fun _ => false.
Definition fuel_of (t : tree) : nat := 2 * size t + 1.

(* post_traversal: deps reversed, no visited set *)
Definition post_traversal (t : tree) :=
  run true false no_cut (fuel_of t) (mk [(t, deps_of true t)] [] []).
(* cutoff_post_traversal *)
Definition cutoff_post_traversal (cut : nat -> bool) (t : tree) :=
  run true false cut (fuel_of t) (mk [(t, deps_of true t)] [] []).
(* unique_post_traversal: deps NOT reversed, `visited.add(expr)` before the loop *)
Definition unique_post_traversal (t : tree) (visited : list tree) :=
  run false true no_cut (fuel_of t) (mk [(t, deps_of false t)] (t :: visited) []).
(* cutoff_unique_post_traversal: deps reversed, root not pre-added *)
Definition cutoff_unique_post_traversal (cut : nat -> bool) (t : tree) (visited : list tree) :=
  run true true cut (fuel_of t) (mk [(t, deps_of true t)] visited []).

(* reachability that does not pass through a cut-off node *)
Inductive reach (cut : nat -> bool) : tree -> tree -> Prop :=
| reach_refl : forall t, reach cut t t
| reach_step : forall t c x, cut (label t) = false -> In c (ops t) -> reach cut c x -> reach cut t x.

Lemma creach_reach : forall cut t x, In x (creach cut t) <-> reach cut t x.
Proof.
  intros cut t x. split.
  - revert x. induction t using tree_ind2. intros x Hx. apply creach_inv in Hx.
    destruct Hx as [->|(Hc & c & Hin & Hx)]; [constructor|].
    rewrite Forall_forall in H. eapply reach_step; eauto.
  - induction 1; [apply creach_self|eapply creach_child; eauto].
Qed.

(* the two plain traversals yield the closed form [post_rec] *)
Theorem C19_cutoff_post_traversal : forall cut t,
  exists v, cutoff_post_traversal cut t = Some (post_rec true cut t, v).
Proof.
  intros cut t. destruct (Spec_total true false cut t []) as [o H]. exists (rev o ++ []).
  unfold cutoff_post_traversal. rewrite (run_Spec _ _ _ _ _ _ H) by (unfold fuel_of; lia).
  rewrite (proj1 (Spec_plain true false cut eq_refl) _ _ _ H). reflexivity.
Qed.

Theorem C19_post_traversal : forall t, exists v, post_traversal t = Some (post_rec true no_cut t, v).
Proof. exact (C19_cutoff_post_traversal no_cut). Qed.

(* post_rec contains exactly the nodes reachable outside cut-off subtrees *)
Lemma post_rec_In : forall r cut t x, In x (post_rec r cut t) <-> In x (creach cut t).
Proof.
  intros r cut. induction t as [t IH] using tree_ops_ind. intros x.
  rewrite post_rec_unfold, in_app_iff. split.
  - intros [Hx|[<-|[]]]; [|apply creach_self]. destruct (cut (label t)) eqn:Hcut; [destruct Hx|].
    apply in_flat_map in Hx. destruct Hx as (c & Hc & Hx). apply In_dlist in Hc.
    apply (creach_child cut x c t Hcut Hc). apply IH; assumption.
  - intros Hx. apply creach_inv in Hx. destruct Hx as [->|(Hcut & c & Hc & Hx)]; [right; simpl; auto|].
    left. rewrite Hcut. apply in_flat_map. exists c. split; [apply In_dlist, Hc|apply IH; assumption].
Qed.

(* started with nothing visited, or with the root only (unique_post_traversal adds it before the loop) *)
Lemma unique_run : forall rev_ops cut t v0, v0 = [] \/ v0 = [t] -> exists o v,
  run rev_ops true cut (fuel_of t) (mk [(t, deps_of rev_ops t)] v0 []) = Some (o, v) /\
  NoDup o /\
  (forall x, In x o <-> In x (creach cut t)) /\
  (forall o1 x o2, o = o1 ++ x :: o2 -> cut (label x) = false -> forall c, In c (ops x) -> In c o1) /\
  (exists o', o = o' ++ [t]).
Proof.
  intros rev_ops cut t v0 Hv0. destruct (Spec_total rev_ops true cut t v0) as [o H].
  exists o, (rev o ++ v0). split; [apply (run_Spec _ _ _ _ _ _ H); unfold fuel_of; lia|].
  destruct (unique_props rev_ops true cut eq_refl t v0 o H) as (Hnd & Hin & Hord & Hall).
  destruct (Spec_root_last _ _ _ _ _ _ H) as [o' Ho'].
  assert (Ht : In t o) by (rewrite Ho'; apply in_or_app; right; simpl; auto).
  assert (Hv : forall y, In y v0 -> y = t).
  { destruct Hv0; subst v0; intros y Hy; [destruct Hy|destruct Hy as [<-|[]]; reflexivity]. }
  split; [exact Hnd|]. split; [|split; [|exists o'; exact Ho']].
  - intros x. split; [apply Hin|]. intros Hx.
    destruct (Hall (fun y Hy => or_introl (Hv y Hy)) x Hx) as [Ho|Ho]; [exact Ho|].
    rewrite (Hv x Ho). exact Ht.
  - intros o1 x o2 E Hcut c Hc. destruct (Hord o1 x o2 E Hcut c Hc) as [Hc1|Hc1]; [exact Hc1|].
    (* an operand of a yielded node is smaller than the root *)
    exfalso. apply Hv in Hc1. subst c.
    assert (Hx : In x (creach cut t)) by (apply Hin; rewrite E; apply in_or_app; right; simpl; auto).
    apply creach_size in Hx. apply size_child in Hc. lia.
Qed.

(* C19: for every expression tree, unique_post_traversal terminates within fuel 2*size+1, yields no
   node twice, yields exactly the structurally distinct sub-expressions, yields every node after all
   of its operands, and yields the root last. *)
Theorem C19_unique_post : forall t, exists o v,
  unique_post_traversal t [] = Some (o, v) /\
  NoDup o /\
  (forall x, In x o <-> In x (subterms t)) /\
  (forall o1 x o2, o = o1 ++ x :: o2 -> forall c, In c (ops x) -> In c o1) /\
  (exists o', o = o' ++ [t]).
Proof.
  intros t. destruct (unique_run false no_cut t [t] (or_intror eq_refl)) as (o & v & H1 & H2 & H3 & H4 & H5).
  exists o, v. rewrite <- (creach_nocut no_cut) by reflexivity.
  repeat split; try assumption; try apply H3. intros o1 x o2 E. exact (H4 o1 x o2 E eq_refl).
Qed.

(* cut-off variant: exactly the nodes reachable without passing through a cut-off node are yielded
   (nothing below a cut-off node is visited through it), each once, operands of non-cut-off nodes first *)
Theorem C19_cutoff_unique_post : forall cut t, exists o v,
  cutoff_unique_post_traversal cut t [] = Some (o, v) /\
  NoDup o /\
  (forall x, In x o <-> reach cut t x) /\
  (forall o1 x o2, o = o1 ++ x :: o2 -> cut (label x) = false -> forall c, In c (ops x) -> In c o1) /\
  (exists o', o = o' ++ [t]).
Proof.
  intros cut t. destruct (unique_run true cut t [] (or_introl eq_refl)) as (o & v & H1 & H2 & H3 & H4 & H5).
  exists o, v. repeat split; try assumption; intros Hx; [apply creach_reach, H3|apply H3, creach_reach]; exact Hx.
Qed.

Print Assumptions C19_unique_post.
Print Assumptions C19_cutoff_unique_post.
Print Assumptions C19_post_traversal.
Print Assumptions C19_cutoff_post_traversal.
