(* C05 - the tactics of the generated obligations coq/Gen/C05_t2_*.v.

   A value obligation den (result) c = den (raw request) c, once the algebra's operations are
   computed ([norm_goal]), is a small identity between polynomial expressions: most often the two
   sides are equal already, or differ by one ring axiom (0 * x, x * 0, commutativity); where the
   constructor folded a literal or dropped conj/abs/re/im, pow or a conditional, one of the laws that
   the generated Section assumes is needed first.  The operations, the unary symbols, the laws and
   [char0] are Section variables of the generated files and are passed as arguments, under the names
   they have in coqgen.HEADER and py/props/C05.py; [r1] and [nz] are always [ring1] and [nz_all]
   applied to them. *)
Require Import UFLV.Core.Tac.

(* [ring] spends nearly all its time reifying, however small the goal, and two obligations in three
   that are not closed by [reflexivity] are instances of 0 = x * 0, 0 = 0 * x or x * y = y * x.  The
   generated Section proves these three for its own operations ([m0r], [m0l], [mC]): applying a
   lemma stated over an arbitrary field costs more than the rest of such a proof. *)
Ltac ring1 m0r m0l mC := first [ reflexivity | exact (m0r _) | exact (m0l _) | exact (mC _ _) | ring ].

(* The side conditions of [field] are numerals here: X <> 0 because X, or - X, is [of_pos p], by
   [char0].  p is computed from X where X is built from 1, + and * ; the other forms are found by
   trying the values that occur. *)
Ltac pos_of z1 add mul X :=
  let rec go X :=
    lazymatch X with
    | z1 => constr:(1%positive)
    | add ?a ?b => let p := go a in let q := go b in eval compute in (p + q)%positive
    | mul ?a ?b => let p := go a in let q := go b in eval compute in (p * q)%positive
    end in
  go X.
Ltac nz_neg_p char0 opp p :=
  match goal with
  | |- ?X <> _ =>
      let E := fresh "E" in
      intro E; apply (char0 p); cbn; (transitivity (opp X); [ ring | rewrite E; ring ])
  end.
Ltac nz_all z1 add mul opp char0 :=
  repeat match goal with |- _ /\ _ => split end;
  first [ assumption | nz_from_hyps
        | match goal with |- ?X <> _ => let p := pos_of z1 add mul X in nz_char0_p char0 p end
        | nz_char0 char0
        | nz_neg_p char0 opp 1%positive | nz_neg_p char0 opp 2%positive | nz_neg_p char0 opp 3%positive
        | nz_neg_p char0 opp 4%positive | nz_neg_p char0 opp 5%positive | nz_neg_p char0 opp 8%positive
        | nz_neg_p char0 opp 10%positive ].

Ltac fin F r1 nz := first [ r1 | (rewrite ?(Fdiv_def F); ring) | field; nz ].
Ltac c_plain F r1 nz := norm_goal; fin F r1 nz.

(* A law H : f (g x) = ..., resp. f 0 = ..., is used wherever its left-hand side occurs; looking for
   the left-hand side first is much cheaper than a rewrite that fails.  The laws are taken in a
   fixed order, once. *)
Ltac rw2 f g H := lazymatch goal with |- context [f (g _)] => rewrite ?H | _ => idtac end.
Ltac rw0 z0 f H := lazymatch goal with |- context [f z0] => rewrite ?H | _ => idtac end.

(* conj is pushed through add, mul, opp only where ring does not close the goal with conj (...) as
   an atom, so that an obligation rests on conj_add, conj_mul, conj_opp only if it needs them. *)
Ltac c_cplx F r1 nz z0 conj abs re im conj_conj conj_abs conj_re conj_im abs_conj abs_abs im_re im_im im_abs
            abs_0 conj_0 re_0 im_0 conj_add conj_mul conj_opp conj_1 :=
  let simp := (rw2 conj conj conj_conj; rw2 conj abs conj_abs; rw2 conj re conj_re; rw2 conj im conj_im;
               rw2 abs conj abs_conj; rw2 abs abs abs_abs; rw2 im re im_re; rw2 im im im_im;
               rw2 im abs im_abs; rw0 z0 abs abs_0; rw0 z0 conj conj_0; rw0 z0 re re_0; rw0 z0 im im_0) in
  norm_goal;
  first [ reflexivity
        | simp;
          first [ r1
                | repeat (rewrite conj_add || rewrite conj_mul || rewrite conj_opp || rewrite conj_0
                          || rewrite conj_1);
                  simp; fin F r1 nz
                | fin F r1 nz ] ].

Ltac c_cond F r1 nz cond_same := norm_goal; rewrite ?cond_same; fin F r1 nz.

(* x ^ 0 = 1 and x ^ 1 = x also where the exponent is 0 or 1 only up to the field laws (1/1, 2 - 1) *)
Ltac c_power F r1 nz z0 z1 pow pow_0 pow_1 :=
  norm_goal;
  first [ reflexivity
        | try (rewrite ?pow_0, ?pow_1;
               repeat match goal with
                      | |- context [pow ?x ?y] =>
                          first [ replace y with z0 by (first [ ring | field; nz ]); rewrite pow_0
                                | replace y with z1 by (first [ ring | field; nz ]); rewrite pow_1 ]
                      end);
          fin F r1 nz ].

(* A conjunction of equations that hold by computation (reported shape and free indices against the
   model's): eq_refl is given at each left-hand side, so that the proof term does not repeat the
   literal right-hand sides. *)
Ltac refls G :=
  lazymatch G with
  | ?a = _ /\ ?R => let r := refls R in constr:(conj (@eq_refl _ a) r)
  | ?a = _ => constr:(@eq_refl _ a)
  end.
Ltac attrs := lazymatch goal with |- ?G => let t := refls G in exact t end.
