(* C25 - Sobolev space comparisons.  Model of ufl/sobolevspace.py INCLUDING what
   functools.total_ordering derives (>, <=, >= from < and ==) and CPython's reflected-operand
   priority for subclasses (DirectionalSobolevSpace is a subclass of SobolevSpace); faithful for
   directional orders in {0,1,2,3,inf}, the grid the correspondence compares (see [eq_res] for the others).
   The table of predefined spaces is regenerated from /repo into Gen/C25_table.v. *)
Require Import List Arith Bool.
Require Import UFLV.Props.Order.
Import ListNotations.

(* orders of weak derivatives: naturals or infinity *)
Inductive ord := Fin (n : nat) | Inf.
Definition ord_leb (a b : ord) : bool :=
  match a, b with
  | _, Inf => true
  | Inf, Fin _ => false
  | Fin x, Fin y => Nat.leb x y
  end.
Definition ord_eqb (a b : ord) : bool :=
  match a, b with
  | Inf, Inf => true
  | Fin x, Fin y => Nat.eqb x y
  | _, _ => false
  end.
Definition ord_ltb (a b : ord) : bool := ord_leb a b && negb (ord_eqb a b).   (* a < b *)
Definition ord_gtb (a b : ord) : bool := ord_ltb b a.                         (* a > b *)
Definition ord_geb (a b : ord) : bool := ord_leb b a.

Lemma ord_leb_refl a : ord_leb a a = true.
Proof. destruct a; cbn; auto. apply Nat.leb_refl. Qed.
Lemma ord_leb_trans a b c : ord_leb a b = true -> ord_leb b c = true -> ord_leb a c = true.
Proof. destruct a, b, c; cbn; auto; try discriminate. rewrite !Nat.leb_le. apply Nat.le_trans. Qed.
Lemma ord_leb_antisym a b : ord_leb a b = true -> ord_leb b a = true -> ord_eqb a b = true.
Proof. destruct a, b; cbn; auto; try discriminate. rewrite !Nat.leb_le, Nat.eqb_eq. apply Nat.le_antisymm. Qed.
Lemma ord_eqb_eq a b : ord_eqb a b = true <-> a = b.
Proof. destruct a, b; cbn; try (split; congruence). rewrite Nat.eqb_eq. split; congruence. Qed.
Lemma ord_eqb_refl a : ord_eqb a a = true.
Proof. apply ord_eqb_eq; auto. Qed.

(* ---------------- directional spaces: the specification ---------------- *)
(* H(o) is a subspace of H(p) iff o_i >= p_i for all i (same number of directions) *)
Fixpoint all2 (f : ord -> ord -> bool) (a b : list ord) : bool :=
  match a, b with
  | [], [] => true
  | x :: a', y :: b' => f x y && all2 f a' b'
  | _, _ => false
  end.
Fixpoint any2 (f : ord -> ord -> bool) (a b : list ord) : bool :=
  match a, b with
  | x :: a', y :: b' => f x y || any2 f a' b'
  | _, _ => false
  end.
Definition dir_sub (a b : list ord) : bool := all2 ord_geb a b.                 (* a subseteq b *)
Definition dir_lt_spec (a b : list ord) : bool := dir_sub a b && any2 ord_gtb a b.
(* what DirectionalSobolevSpace.__lt__ computes for two directional spaces *)
Definition dir_lt_impl (a b : list ord) : bool :=
  if Nat.eqb (length a) (length b) then any2 ord_gtb a b else false.

Lemma all2_length f a b : all2 f a b = true -> length a = length b.
Proof. revert b; induction a as [|x a IH]; intros [|y b]; cbn; try discriminate; auto.
  intros [_ H]%andb_prop. f_equal. auto. Qed.

Lemma dir_sub_refl a : dir_sub a a = true.
Proof. induction a as [|x a IH]; cbn; auto. unfold ord_geb. rewrite ord_leb_refl. exact IH. Qed.

Lemma dir_sub_trans a b c : dir_sub a b = true -> dir_sub b c = true -> dir_sub a c = true.
Proof.
  revert b c; induction a as [|x a IH]; intros [|y b] [|z c]; cbn; try discriminate; auto.
  intros [H1 H2]%andb_prop [H3 H4]%andb_prop. apply andb_true_intro.
  split; [exact (ord_leb_trans _ _ _ H3 H1) | exact (IH _ _ H2 H4)].
Qed.

(* x > y >= x is impossible; x > y >= z gives x > z *)
Lemma ord_gt_not_le x y : ord_gtb x y = true -> ord_geb y x = true -> False.
Proof.
  unfold ord_gtb, ord_ltb, ord_geb. intros [Ha Hb]%andb_prop H.
  rewrite (ord_leb_antisym _ _ Ha H) in Hb. discriminate.
Qed.

Lemma ord_gt_ge_trans x y z : ord_gtb x y = true -> ord_geb y z = true -> ord_gtb x z = true.
Proof.
  intros G H. pose proof G as [Ha _]%andb_prop. apply andb_true_intro.
  split; [exact (ord_leb_trans _ _ _ H Ha)|].
  destruct (ord_eqb z x) eqn:E; [|reflexivity]. apply ord_eqb_eq in E. subst z. destruct (ord_gt_not_le _ _ G H).
Qed.

Lemma any_gt_not_all_le a b : any2 ord_gtb a b = true -> dir_sub b a = true -> False.
Proof.
  revert b; induction a as [|x a IH]; intros [|y b]; cbn; try discriminate.
  intros [H|H]%orb_prop [H1 H2]%andb_prop; [exact (ord_gt_not_le _ _ H H1) | exact (IH _ H H2)].
Qed.

Theorem dir_lt_spec_irrefl a : dir_lt_spec a a = false.
Proof.
  unfold dir_lt_spec. destruct (any2 ord_gtb a a) eqn:E; [|apply andb_false_r].
  destruct (any_gt_not_all_le a a E (dir_sub_refl a)).
Qed.

Lemma any_gt_sub_l a b c : any2 ord_gtb a b = true -> dir_sub b c = true -> any2 ord_gtb a c = true.
Proof.
  revert b c; induction a as [|x a IH]; intros [|y b] [|z c]; cbn; try discriminate.
  intros [H|H]%orb_prop [H3 H4]%andb_prop; apply orb_true_intro;
    [left; exact (ord_gt_ge_trans _ _ _ H H3) | right; exact (IH _ _ H H4)].
Qed.

Theorem dir_lt_spec_trans a b c :
  dir_lt_spec a b = true -> dir_lt_spec b c = true -> dir_lt_spec a c = true.
Proof.
  unfold dir_lt_spec. intros [S1 G1]%andb_prop [S2 G2]%andb_prop. apply andb_true_intro.
  split; [exact (dir_sub_trans _ _ _ S1 S2) | exact (any_gt_sub_l _ _ _ G1 S2)].
Qed.

Theorem dir_lt_spec_asym a b : dir_lt_spec a b = true -> dir_lt_spec b a = false.
Proof. exact (strict_asym dir_lt_spec dir_lt_spec_irrefl dir_lt_spec_trans a b). Qed.

(* The implementation agrees with the specification exactly on comparable pairs *)
Theorem C25_dir_lt_partial a b :
  dir_sub a b = true \/ dir_sub b a = true -> dir_lt_impl a b = dir_lt_spec a b.
Proof.
  intros [H|H]; unfold dir_lt_impl, dir_lt_spec.
  - rewrite H, (all2_length _ _ _ H), Nat.eqb_refl. reflexivity.
  - rewrite (all2_length _ _ _ H), Nat.eqb_refl.
    destruct (any2 ord_gtb a b) eqn:E; [|rewrite andb_false_r; reflexivity].
    destruct (any_gt_not_all_le a b E H).
Qed.

(* ... and is NOT a strict order in general: H(2,0) < H(0,2) and H(0,2) < H(2,0) *)
Theorem C25_dir_lt_refuted :
  exists a b, dir_lt_impl a b = true /\ dir_lt_impl b a = true /\ dir_lt_spec a b = false.
Proof. exists [Fin 2; Fin 0], [Fin 0; Fin 2]. vm_compute. auto. Qed.

(* ---------------- named spaces ---------------- *)
Record nspace := { ns_id : nat; ns_parents : list nat; ns_order : ord }.
Definition ntable := list nspace.
Definition mem (x : nat) (l : list nat) : bool := existsb (Nat.eqb x) l.

Inductive sp := Named (s : nspace) | Dir (os : list ord).

(* results of a Python comparison: a bool, a truthy non-bool object, or an exception *)
Inductive res := RB (b : bool) | RObj | RErr.
Definition truthy (r : res) : option bool :=
  match r with RB b => Some b | RObj => Some true | RErr => None end.
Definition rnot (r : res) : res := match r with RB b => RB (negb b) | RObj => RB false | RErr => RErr end.

(* the special named spaces the directional comparison mentions, by table id *)
(* [dir_all_any]: DirectionalSobolevSpace.__lt__ tests all(>=) and any(>) (repaired) instead of any(>);
   [unknown_raises]: it raises for HDivDiv/HEin/HCurlDiv instead of returning the exception object.
   Both flags are detected on the real code on every run (and validated by the exhaustive correspondence). *)
Record specials := { id_L2 : nat; id_H1 : nat; id_H2 : nat; id_H3 : nat; id_HInf : nat;
                     id_HDiv : nat; id_HCurl : nat; unknown_ids : list nat;
                     dir_all_any : bool; unknown_raises : bool;
                     (* [explicit_ops]: >, <=, >= are defined as for a partial order instead of derived by
                        total_ordering; [contains_le]: directional membership is `space <= self` *)
                     explicit_ops : bool; contains_le : bool;
                     (* [named_contains_le]: SobolevSpace.__contains__ is `fe.sobolev_space <= self` (repaired)
                        instead of `== self or self in parents` *)
                     named_contains_le : bool;
                     item_parents : list (nat * list nat)   (* parents of the spaces L2,H1,H2,H3,HInf by id *) }.
Section Named.
Variable S : specials.
Variable T : ntable.

Definition by_id (i : nat) : option nspace := find (fun s => Nat.eqb (ns_id s) i) T.
(* DirectionalSobolevSpace.__getitem__: spaces = {0: L2, 1: H1, 2: H2, 3: H3, inf: HInf} *)
Definition dir_item (o : ord) : option nat :=
  match o with
  | Fin 0 => Some (id_L2 S) | Fin 1 => Some (id_H1 S) | Fin 2 => Some (id_H2 S)
  | Fin 3 => Some (id_H3 S) | Inf => Some (id_HInf S) | _ => None
  end.

Fixpoint ord_min0 (l : list ord) : ord :=
  match l with [] => Inf | x :: r => let m := ord_min0 r in if ord_leb x m then x else m end.
Definition named_le_id (a : nspace) (i : nat) : bool :=      (* a <= the named space with id i *)
  Nat.eqb (ns_id a) i || mem i (ns_parents a).

(* __eq__ *)
Definition eq_res (x y : sp) : res :=
  match x, y with
  | Named a, Named b => RB (Nat.eqb (ns_id a) (ns_id b))
  | Dir a, Dir b => RB (Nat.eqb (length a) (length b) && all2 ord_eqb a b)
  | Dir a, Named b | Named b, Dir a =>      (* reflected priority: Dir.__eq__ either way *)
      if forallb (fun o => match dir_item o with Some _ => true | None => false end) a
      then RB (forallb (fun o => match dir_item o with Some i => Nat.eqb i (ns_id b) | None => false end) a)
      else RErr    (* KeyError of __getitem__ for an order outside {0,1,2,3,inf}.  The model raises whenever
                      such an order occurs; Python's all() stops at the first False and may not reach it
                      (DirectionalSobolevSpace((0, 4)) == H1 is False).  Likewise in [gt_explicit]. *)
  end.
Definition ne_res (x y : sp) : res := rnot (eq_res x y).

(* type(self).__lt__(self, other), no dispatch *)
Definition lt_method (x y : sp) : res :=
  match x, y with
  | Named a, Named b => RB (mem (ns_id b) (ns_parents a))
  | Named _, Dir _ => RErr                    (* unhashable DirectionalSobolevSpace in frozenset *)
  | Dir a, Dir b => RB (if dir_all_any S then dir_lt_spec a b else dir_lt_impl a b)
  | Dir a, Named b =>
      if Nat.eqb (ns_id b) (id_HDiv S) || Nat.eqb (ns_id b) (id_HCurl S)
      then RB (forallb (fun o => ord_geb o (Fin 1)) a)
      else if mem (ns_id b) (unknown_ids S)
      then (if unknown_raises S then RErr else RObj)     (* RETURNS a NotImplementedError instance *)
      else if explicit_ops S
      then (* repaired: the space of the least smooth direction is contained in b, and self <> b *)
        match dir_item (ord_min0 a) with
        | Some i => match eq_res x y with
                    | RB e => RB ((Nat.eqb i (ns_id b) || match find (fun p => Nat.eqb (fst p) i) (item_parents S) with
                                                        | Some p => mem (ns_id b) (snd p) | None => false end) && negb e)
                    | r => r end
        | None => RErr
        end
      else RB ((if dir_all_any S then forallb (fun o => ord_geb o (ns_order b)) a else true)
               && existsb (fun o => ord_gtb o (ns_order b)) a)
  end.
(* functools.total_ordering: _gt_from_lt, _le_from_lt, _ge_from_lt *)
Definition rand_not_and (r : res) (e : res) : res :=      (* not r and e *)
  match r with
  | RErr => RErr
  | RObj | RB true => RB false
  | RB false => e
  end.
Definition ror (r : res) (e : res) : res :=                (* r or e *)
  match r with
  | RErr => RErr
  | RObj => RObj
  | RB true => RB true
  | RB false => e
  end.
(* explicit partial-order operators (repaired code) *)
Definition gt_explicit (x y : sp) : res :=
  match x, y with
  | Named a, Named b => RB (mem (ns_id a) (ns_parents b))
  | Named _, Dir _ => RErr
  | Dir a, Dir b => lt_method (Dir b) (Dir a)
  | Dir a, Named b =>
      if forallb (fun o => match dir_item o with Some _ => true | None => false end) a
      then rand_not_and (rnot (RB (forallb (fun o => match dir_item o with Some i => named_le_id b i | None => false end) a)))
                        (rnot (eq_res x y))
      else RErr
  end.
Definition gt_method (x y : sp) : res :=
  if explicit_ops S then gt_explicit x y else rand_not_and (lt_method x y) (ne_res x y).
Definition le_method (x y : sp) : res :=
  if explicit_ops S then ror (eq_res x y) (lt_method x y) else ror (lt_method x y) (eq_res x y).
Definition ge_method (x y : sp) : res :=
  if explicit_ops S then ror (eq_res x y) (gt_method x y) else rnot (lt_method x y).

(* CPython rich comparison: if type(y) is a proper subclass of type(x), y's reflected method first *)
Definition reflected_first (x y : sp) : bool :=
  match x, y with Named _, Dir _ => true | _, _ => false end.
Definition py_lt (x y : sp) : res := if reflected_first x y then gt_method y x else lt_method x y.
Definition py_gt (x y : sp) : res := if reflected_first x y then lt_method y x else gt_method x y.
Definition py_le (x y : sp) : res := if reflected_first x y then ge_method y x else le_method x y.
Definition py_ge (x y : sp) : res := if reflected_first x y then le_method y x else ge_method x y.
Definition py_eq (x y : sp) : res := eq_res x y.

(* ----- the laws of the property, as booleans over a finite list of spaces ----- *)
Definition is_b (r : res) (b : bool) : bool := match r with RB c => Bool.eqb b c | _ => false end.
Definition r_eqb (r1 r2 : res) : bool :=
  match r1, r2 with RB a, RB b => Bool.eqb a b | RObj, RObj => true | RErr, RErr => true | _, _ => false end.

Definition law_irrefl (l : list sp) : bool := forallb (fun a => is_b (py_lt a a) false) l.
Definition law_trans (l : list sp) : bool :=
  forallb (fun a => forallb (fun b => forallb (fun c =>
    implb (is_b (py_lt a b) true && is_b (py_lt b c) true) (is_b (py_lt a c) true)) l) l) l.
Definition law_gt_is_flipped_lt (l : list sp) : bool :=
  forallb (fun a => forallb (fun b => r_eqb (py_gt a b) (py_lt b a)) l) l.
Definition law_le (l : list sp) : bool :=
  forallb (fun a => forallb (fun b => r_eqb (py_le a b) (ror (py_lt a b) (py_eq a b))) l) l.
Definition law_ge_is_flipped_le (l : list sp) : bool :=
  forallb (fun a => forallb (fun b => r_eqb (py_ge a b) (py_le b a)) l) l.
Definition law_all_bool (l : list sp) : bool :=
  forallb (fun a => forallb (fun b => match py_lt a b with RB _ => true | _ => false end) l) l.
(* comparable = one is below the other or equal *)
Definition comparable (a b : sp) : bool :=
  is_b (py_lt a b) true || is_b (py_lt b a) true || is_b (py_eq a b) true.
Definition law_gt_partial (l : list sp) : bool :=
  forallb (fun a => forallb (fun b => implb (comparable a b) (r_eqb (py_gt a b) (py_lt b a))) l) l.
Definition law_ge_partial (l : list sp) : bool :=
  forallb (fun a => forallb (fun b => implb (comparable a b) (r_eqb (py_ge a b) (py_le b a))) l) l.
(* membership `fe in s`  (SobolevSpace.__contains__) for an element whose space is e *)
Definition contains (s e : nspace) : bool := Nat.eqb (ns_id e) (ns_id s) || mem (ns_id s) (ns_parents e).
Definition law_membership (l : list nspace) : bool :=
  forallb (fun s => forallb (fun e => r_eqb (RB (contains s e)) (py_le (Named e) (Named s))) l) l.
(* parents are transitively closed and acyclic *)
Definition law_closed (l : list nspace) : bool :=
  forallb (fun a => forallb (fun p => match by_id p with
                                      | Some b => forallb (fun q => mem q (ns_parents a)) (ns_parents b)
                                      | None => false end) (ns_parents a)
                    && negb (mem (ns_id a) (ns_parents a))) l.
End Named.


(* ----- specification: the subspace relation, and what each operator should return ----- *)
Section Spec.
Variable S : specials.
Variable T : ntable.
Definition named_sub (a b : nspace) : bool := Nat.eqb (ns_id a) (ns_id b) || mem (ns_id b) (ns_parents a).
Fixpoint ord_min (l : list ord) : ord :=
  match l with [] => Inf | x :: r => let m := ord_min r in if ord_leb x m then x else m end.
Definition item_space (o : ord) : option nspace :=
  match dir_item S o with Some i => by_id T i | None => None end.
(* H(a) is contained in a named space b iff H^{min a} is; a named space a is contained in H(b) iff it is
   contained in every H^{b_i} *)
Definition sub_spec (x y : sp) : bool :=
  match x, y with
  | Named a, Named b => named_sub a b
  | Dir a, Dir b => dir_sub a b
  | Dir a, Named b => match a with
                      | [] => false
                      | _ => match item_space (ord_min a) with Some m => named_sub m b | None => false end
                      end
  | Named a, Dir b => match b with
                      | [] => false
                      | _ => forallb (fun o => match item_space o with Some m => named_sub a m | None => false end) b
                      end
  end.
Definition lt_spec (x y : sp) : bool := sub_spec x y && negb (sub_spec y x).
Definition eq_spec (x y : sp) : bool := sub_spec x y && sub_spec y x.
Definition spec_comparable (x y : sp) : bool := sub_spec x y || sub_spec y x.
(* known-finding class B: a directional space compared with a space of unknown relation *)
Definition involves_unknown (x y : sp) : bool :=
  match x, y with
  | Dir _, Named b | Named b, Dir _ => mem (ns_id b) (unknown_ids S)
  | _, _ => false
  end.
(* DirectionalSobolevSpace.__contains__ for an element whose space is the named space e *)
Definition contains_dir (b : list ord) (e : nspace) : res :=
  if contains_le S then py_le S (Named e) (Dir b) else
  match eq_res S (Named e) (Dir b) with
  | RB true => RB true
  | RErr => RErr
  | _ => RB (forallb (fun o => match dir_item S o with Some i => mem i (ns_parents e) | None => false end) b)
  end.
(* known-finding class C: the element's space equals the space of some but not all directions *)
Definition some_not_all_equal (b : list ord) (e : nspace) : bool :=
  existsb (fun o => match dir_item S o with Some i => Nat.eqb i (ns_id e) | None => false end) b
  && negb (forallb (fun o => match dir_item S o with Some i => Nat.eqb i (ns_id e) | None => false end) b).
Definition membership_dir_ok (ds : list (list ord)) (es : list nspace) : bool :=
  forallb (fun b => forallb (fun e =>
    implb (negb (some_not_all_equal b e)) (r_eqb (contains_dir b e) (RB (sub_spec (Named e) (Dir b))))) es) ds.
Definition pair_ok (x y : sp) : bool :=
  r_eqb (py_lt S x y) (RB (lt_spec x y)) && r_eqb (py_gt S x y) (RB (lt_spec y x))
  && r_eqb (py_le S x y) (RB (sub_spec x y)) && r_eqb (py_ge S x y) (RB (sub_spec y x))
  && r_eqb (py_eq S x y) (RB (eq_spec x y)).
(* outside the two known classes every operator returns the mathematically right answer *)
Definition all_ok_outside_known (l : list sp) : bool :=
  forallb (fun x => forallb (fun y =>
     implb (spec_comparable x y && negb (involves_unknown x y)) (pair_ok x y)) l) l.
(* repaired code: every operator is right on EVERY pair that does not involve an unknown space *)
Definition all_ok_everywhere (l : list sp) : bool :=
  forallb (fun x => forallb (fun y => implb (negb (involves_unknown x y)) (pair_ok x y)) l) l.
Definition membership_dir_all (ds : list (list ord)) (es : list nspace) : bool :=
  forallb (fun b => forallb (fun e =>
    implb (negb (mem (ns_id e) (unknown_ids S))) (r_eqb (contains_dir b e) (RB (sub_spec (Named e) (Dir b))))) es) ds.
(* `fe in t` for an element whose space is ANY space x of the grid (also a directional one) *)
Definition contains_gen (t x : sp) : res :=
  match t with
  | Named s =>
      if named_contains_le S then py_le S x (Named s)
      else match eq_res S x (Named s) with
           | RB true => RB true
           | RErr => RErr
           | _ => RB (match x with
                      | Named e => mem (ns_id s) (ns_parents e)
                      | Dir _ => Nat.eqb (ns_id s) (id_L2 S)      (* DirectionalSobolevSpace: parents = {L2} *)
                      end)
           end
  | Dir b =>
      match x with
      | Named e => contains_dir b e
      | Dir a => py_le S (Dir a) (Dir b)
      end
  end.
(* membership is consistent with the order: fe in t  iff  space(fe) is a subspace of t *)
Definition membership_gen_all (l : list sp) : bool :=
  forallb (fun t => forallb (fun x =>
    implb (negb (involves_unknown x t)) (r_eqb (contains_gen t x) (RB (sub_spec x t)))) l) l.
End Spec.

Lemma forallb2_In {A} (p : A -> A -> bool) l :
  forallb (fun a => forallb (p a) l) l = true -> forall a b, In a l -> In b l -> p a b = true.
Proof.
  intros H a b Ha Hb. rewrite forallb_forall in H. specialize (H a Ha). rewrite forallb_forall in H. exact (H b Hb).
Qed.

Lemma r_eqb_RB r b : r_eqb r (RB b) = true -> r = RB b.
Proof. destruct r as [c| |]; cbn; try discriminate. intros ->%Bool.eqb_prop. reflexivity. Qed.

Lemma membership_gen_all_sound S T l : membership_gen_all S T l = true ->
  forall t x, In t l -> In x l -> involves_unknown S x t = false ->
  contains_gen S t x = RB (sub_spec S T x t).
Proof.
  intros H t x Ht Hx Hu. pose proof (forallb2_In _ _ H t x Ht Hx) as P. cbv beta in P.
  rewrite Hu in P. apply r_eqb_RB, P.
Qed.

Lemma all_ok_outside_known_sound S T l : all_ok_outside_known S T l = true ->
  forall x y, In x l -> In y l -> spec_comparable S T x y = true -> involves_unknown S x y = false ->
  py_lt S x y = RB (lt_spec S T x y) /\ py_gt S x y = RB (lt_spec S T y x) /\
  py_le S x y = RB (sub_spec S T x y) /\ py_ge S x y = RB (sub_spec S T y x) /\
  py_eq S x y = RB (eq_spec S T x y).
Proof.
  intros H x y Hx Hy Hc Hu. pose proof (forallb2_In _ _ H x y Hx Hy) as P. cbv beta in P.
  rewrite Hc, Hu in P. apply andb_prop in P as [[[[H1 H2]%andb_prop H3]%andb_prop H4]%andb_prop H5].
  repeat split; apply r_eqb_RB; assumption.
Qed.

(* the boolean law of transitivity over a list, as a statement about its members *)
Lemma law_trans_sound S l : law_trans S l = true ->
  forall a b c, In a l -> In b l -> In c l ->
  py_lt S a b = RB true -> py_lt S b c = RB true -> py_lt S a c = RB true.
Proof.
  intros H a b c Ha Hb Hc H1 H2. pose proof (forallb2_In _ _ H a b Ha Hb) as P. cbv beta in P.
  rewrite forallb_forall in P. specialize (P c Hc). rewrite H1, H2 in P. cbn in P.
  destruct (py_lt S a c) as [[|]| |]; cbn in P; try discriminate; reflexivity.
Qed.

Print Assumptions dir_lt_spec_trans.
Print Assumptions C25_dir_lt_partial.
Print Assumptions C25_dir_lt_refuted.
Print Assumptions law_trans_sound.
Print Assumptions all_ok_outside_known_sound.
