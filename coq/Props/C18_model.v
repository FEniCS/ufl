(* C18, hand-written model: ufl/algorithms/estimate_degrees.py (SumDegreeEstimator).

   [estimate] is the degree the real estimator returns for an expression of the frozen syntax
   (integer degrees: simplex cells; tuple degrees of tensor-product cells are out of scope).  It is
   FAITHFUL to the code, including [indexed], which walks the *reference* value sizes of the
   sub-elements with the *physical* flat component.  The handler table of the class is mirrored by
   [table] (compared with the table regenerated from the source by the AST translator on every run)
   and the lemmas [tbl_*] state that [estimate] is the interpretation of that table. *)
Require Export UFLV.Core.Den.
Require Import Lia.

(* ---------------------------------------------------------------------------------------------- *)
(* arithmetic of the helper methods *)

Definition add_degrees (ops : list nat) : nat := fold_right Nat.add 0 ops.     (* sum(ops) *)
Definition max_degrees (ops : list nat) : nat := fold_right Nat.max 0 ops.     (* max(ops + (0,)) *)
(* _reduce_degree: max(f - 1, 0) unless a quadrilateral / hexahedron cell is involved *)
Definition reduce_degree (quad : bool) (f : nat) : nat := if quad then f else Nat.max (f - 1) 0.
(* power: exponent an IntValue gi >= 0 -> a * gi, everything else a + 2 *)
Definition power_rule (a : nat) (g : option Z) : nat :=
  match g with
  | Some gi => if (0 <=? gi)%Z then a * Z.to_nat gi else add_degrees [a; 2]
  | None => add_degrees [a; 2]
  end.
Definition math_rule (a : nat) : nat := if Nat.eqb a 0 then a else add_degrees [a; 2].
Definition atan2_rule (a b : nat) : nat :=
  if negb (Nat.eqb a 0) || negb (Nat.eqb b 0) then add_degrees [max_degrees [a; b]; 2]
  else max_degrees [a; b].
(* `if a == 0: return a  else: return a`: the source has this test with two equal branches *)
Definition abs_rule (a : nat) : nat := if Nat.eqb a 0 then a else a.

(* ---------------------------------------------------------------------------------------------- *)
(* elements, as far as the estimator and the environment hypothesis look at them *)

Record elem := {
  e_subs : list (nat * nat);   (* element.sub_elements: (reference_value_size, embedded_superdegree) *)
  e_pdeg : list nat;           (* per flat PHYSICAL component (row major in ufl_shape): the
                                  embedded_superdegree of the sub-element that owns the component *)
  e_sym : bool;                (* isinstance(element.pullback, SymmetricPullback) *)
  e_refsize : nat              (* element.reference_value_size *)
}.
Record tinfo := {
  t_deg : nat;                 (* degree the terminal handlers return for the whole terminal *)
  t_shape : list nat;          (* ufl_shape of the terminal *)
  t_elem : option elem         (* Some for Coefficient / Argument *)
}.
Definition cfg := nat -> nat -> tinfo.      (* terminal kind, id *)

Definition tinfo0 : tinfo := {| t_deg := 0; t_shape := []; t_elem := None |}.
Fixpoint mkcfg (l : list (nat * nat * tinfo)) : cfg :=
  fun k i => match l with
             | [] => tinfo0
             | (k', i', t) :: r => if Nat.eqb k k' && Nat.eqb i i' then t else mkcfg r k i
             end.

(* utils/indexflattening.py *)
Fixpoint strides (sh : list nat) : list nat :=
  match sh with [] => [] | _ :: t => fold_right Nat.mul 1 t :: strides t end.
Fixpoint flatten (c st : list nat) : nat :=
  match c, st with x :: c', s :: st' => x * s + flatten c' st' | _, _ => 0 end.

(* the loop of SumDegreeEstimator.indexed *)
Fixpoint walk (subs : list (nat * nat)) (comp offset : nat) : option nat :=
  match subs with
  | [] => None
  | (sz, d) :: t => if Nat.ltb comp (offset + sz) then Some d else walk t comp (offset + sz)
  end.

Fixpoint all_fixed (mi : list idx) : option (list nat) :=
  match mi with
  | [] => Some []
  | Fixed n :: t => match all_fixed t with Some l => Some (n :: l) | None => None end
  | Free _ :: _ => None
  end.

Definition is_formarg (k : nat) : bool := Nat.eqb k 0 || Nat.eqb k 1.   (* Coefficient, Argument *)

(* the degree [indexed] finds by its walk, None when it falls through to [return A].
   fx = false: the code as pinned (walks reference sizes with the physical flat component for every
   element with sub-elements); fx = true: the code after fixes/C18-indexed-physical-owner.diff, which
   walks only if the pullback is not symmetric and product(op.ufl_shape) == reference_value_size.
   Which variant /repo implements is decided on every run by the AST translator (C18_rules.py). *)
Definition shape_size (sh : list nat) : nat := fold_right Nat.mul 1 sh.
Definition indexed_walk (fx : bool) (ti : cfg) (a : expr) (mi : list idx) : option nat :=
  match a with
  | Term k id sh =>
      if is_formarg k then
        match all_fixed mi, t_elem (ti k id) with
        | Some c, Some el =>
            match e_subs el with
            | [] => None
            | _ => if Nat.eqb (length mi) (length sh)
                      && (negb fx || (negb (e_sym el) && Nat.eqb (shape_size sh) (e_refsize el)))
                   then walk (e_subs el) (flatten c (strides sh)) 0
                   else None
            end
        | _, _ => None
        end
      else None
  | _ => None
  end.
Definition indexed_rule (fx : bool) (ti : cfg) (a : expr) (mi : list idx) (A : nat) : nat :=
  match indexed_walk fx ti a mi with Some d => d | None => A end.

Definition int_exponent (b : expr) : option Z := match b with IntV z => Some z | _ => None end.

Section Estimate.
Variable quad : bool.          (* some domain of the expression has a quadrilateral/hexahedron cell *)
Variable ti : cfg.
Variable fx : bool.            (* which variant of [indexed] (see indexed_walk) *)

Fixpoint estimate (e : expr) : nat :=
  match e with
  | Zero _ _ | IntV _ | RealV _ _ | CplxV _ _ _ _ | RatV _ _ | Identity _ | PermSym _ => 0
  | Term k id _ => t_deg (ti k id)
  | Sum a b => max_degrees [estimate a; estimate b]
  | Product a b => add_degrees [estimate a; estimate b]
  | Division a b => add_degrees [estimate a; estimate b]
  | Power a b => power_rule (estimate a) (int_exponent b)
  | Abs a => abs_rule (estimate a)
  | Conj a | Real a | Imag a => estimate a
  | Indexed a mi => indexed_rule fx ti a mi (estimate a)
  | IndexSum a _ _ => estimate a
  | ComponentTensor a _ => estimate a
  | ListTensor es => max_degrees (map estimate es)
  | Conditional _ t f => max_degrees [estimate t; estimate f]
  | MinV a b | MaxV a b => max_degrees [estimate a; estimate b]
  | Math _ a => math_rule (estimate a)
  | Atan2 a b => atan2_rule (estimate a) (estimate b)
  | Bessel _ _ x => math_rule (estimate x)
  | Vari a _ => estimate a
  | Restricted _ a => estimate a
  | Grad a _ | RefGrad a _ | Div a _ | NablaGrad a _ | NablaDiv a _ | Curl a =>
      reduce_degree quad (estimate a)
  | RefValue a _ => estimate a
  | Transposed a => estimate a
  | Outer a b | Inner a b | Dot a b | Cross a b => add_degrees [estimate a; estimate b]
  (* _not_handled / compound_tensor_operator: the estimator raises; see [supported] *)
  | Perp _ | Trace _ | Determinant _ | Inverse _ | Cofactor _ | Deviatoric _ | Skew _ | Sym _ => 0
  end.

(* the estimator does not raise on e (conditions are traversed too) *)
Fixpoint supported (e : expr) : bool :=
  match e with
  | Zero _ _ | IntV _ | RealV _ _ | CplxV _ _ _ _ | RatV _ _ | Identity _ | PermSym _
  | Term _ _ _ => true
  | Sum a b | Product a b | Division a b | Power a b | MinV a b | MaxV a b | Atan2 a b
  | Bessel _ a b | Outer a b | Inner a b | Dot a b | Cross a b => supported a && supported b
  | Abs a | Conj a | Real a | Imag a | Indexed a _ | IndexSum a _ _ | ComponentTensor a _
  | Math _ a | Vari a _ | Restricted _ a | Grad a _ | RefGrad a _ | Div a _ | NablaGrad a _
  | NablaDiv a _ | Curl a | RefValue a _ | Transposed a => supported a
  | ListTensor es => forallb supported es
  | Conditional c t f => supportedc c && supported t && supported f
  | Perp _ | Trace _ | Determinant _ | Inverse _ | Cofactor _ | Deviatoric _ | Skew _ | Sym _ => false
  end
with supportedc (c : cond) : bool :=
  match c with
  | Cmp _ a b => supported a && supported b
  | AndC a b | OrC a b => supportedc a && supportedc b
  | NotC a => supportedc a
  end.

(* ---------------------------------------------------------------------------------------------- *)
(* The polynomial fragment of the property: sums, products, division by degree-0 expressions,
   non-negative integer powers, index notation, tensors, restrictions, variables, conj/real/imag,
   derivatives, and the compound products inner/dot/outer/cross/transposed. *)

Definition nonneg_int (b : expr) : bool :=
  match b with IntV z => (0 <=? z)%Z | _ => false end.

Fixpoint poly (e : expr) : bool :=
  match e with
  | Zero _ _ | IntV _ | RealV _ _ | CplxV _ _ _ _ | RatV _ _ | Identity _ | PermSym _
  | Term _ _ _ => true
  | Sum a b | Product a b | Outer a b | Inner a b | Dot a b | Cross a b => poly a && poly b
  | Division a b => poly a && poly b && Nat.eqb (estimate b) 0
  | Power a b => poly a && nonneg_int b
  | Conj a | Real a | Imag a | Indexed a _ | IndexSum a _ _ | ComponentTensor a _
  | Vari a _ | Restricted _ a | Grad a _ | RefGrad a _ | Div a _ | NablaGrad a _
  | NablaDiv a _ | Curl a | Transposed a => poly a
  | ListTensor es => forallb poly es
  | _ => false
  end.

(* degree bound that the environment hypothesis grants component c of terminal (k, id) *)
Definition cdeg (k id : nat) (c : list nat) : nat :=
  match t_elem (ti k id) with
  | Some el => if is_formarg k
               then nth (flatten c (strides (t_shape (ti k id)))) (e_pdeg el) (t_deg (ti k id))
               else t_deg (ti k id)
  | None => t_deg (ti k id)
  end.

(* guard of the partial theorem: wherever [indexed] takes a sub-element's degree, that degree
   dominates the degree of the sub-element that really owns the physical component *)
Definition indexed_ok (a : expr) (mi : list idx) : bool :=
  match indexed_walk fx ti a mi, a, all_fixed mi with
  | Some d, Term k id sh, Some c =>
      (if list_eq_dec Nat.eq_dec sh (t_shape (ti k id)) then true else false) && Nat.leb (cdeg k id c) d
  | Some _, _, _ => false
  | None, _, _ => true
  end.

Fixpoint guard (e : expr) : bool :=
  match e with
  | Zero _ _ | IntV _ | RealV _ _ | CplxV _ _ _ _ | RatV _ _ | Identity _ | PermSym _
  | Term _ _ _ => true
  | Sum a b | Product a b | Division a b | Power a b | MinV a b | MaxV a b | Atan2 a b
  | Bessel _ a b | Outer a b | Inner a b | Dot a b | Cross a b => guard a && guard b
  | Indexed a mi => indexed_ok a mi && guard a
  | Abs a | Conj a | Real a | Imag a | IndexSum a _ _ | ComponentTensor a _
  | Math _ a | Vari a _ | Restricted _ a | Grad a _ | RefGrad a _ | Div a _ | NablaGrad a _
  | NablaDiv a _ | Curl a | RefValue a _ | Transposed a
  | Perp a | Trace a | Determinant a | Inverse a | Cofactor a | Deviatoric a | Skew a | Sym a => guard a
  | ListTensor es => forallb guard es
  | Conditional _ t f => guard t && guard f
  end.

End Estimate.

(* the whole-terminal degree dominates every component's degree (embedded_superdegree of a mixed /
   symmetric element is at least that of its sub-elements) *)
Definition wf_tinfo (t : tinfo) : bool :=
  match t_elem t with Some el => forallb (fun d => Nat.leb d (t_deg t)) (e_pdeg el) | None => true end.
Definition wf_cfg (ti : cfg) : Prop := forall k id, wf_tinfo (ti k id) = true.
Definition wf_list (l : list (nat * nat * tinfo)) : bool := forallb (fun p => wf_tinfo (snd p)) l.

Lemma wf_list_cfg l : wf_list l = true -> wf_cfg (mkcfg l).
Proof.
  intros H k id. induction l as [|[[k' i'] t] r IH]; cbn in *; [reflexivity|].
  apply andb_prop in H. destruct H as [H1 H2].
  destruct (Nat.eqb k k' && Nat.eqb id i'); auto.
Qed.

(* elements whose component map is the identity: physical flat component = reference flat
   component, sub-element i owns the components [offset_i, offset_i + size_i) *)
Definition ident_pdeg (subs : list (nat * nat)) : list nat :=
  concat (map (fun p => repeat (snd p) (fst p)) subs).
Definition ident_elem (el : elem) : Prop := e_pdeg el = ident_pdeg (e_subs el).

(* ---------------------------------------------------------------------------------------------- *)
(* The handler table of SumDegreeEstimator as data (regenerated from the source on every run and
   compared with this one), and its interpretation. *)

Inductive dexp :=
 | DConst (n : nat)                  (* return n *)
 | DNone                             (* return None *)
 | DArg (k : nat)                    (* return the k-th operand's degree *)
 | DAddAll | DMaxAll                 (* self._add_degrees(v, *ops) / self._max_degrees(v, *ops) *)
 | DAdd (l : list dexp) | DMax (l : list dexp)
 | DReduce                           (* self._reduce_degree(v, f) on the first operand *)
 | DIfAny (cs : list dexp) (t f : dexp)      (* if a or b: ... else: ... (truthiness of degrees) *)
 | DIfZero (c : dexp) (t f : dexp)           (* if a == 0: ... else: ... *)
 | DRaise                            (* _not_handled *)
 | DWarn (d : dexp)                  (* warnings.warn(...); return d *)
 | DCoordDegree                      (* extract_unique_domain(v).ufl_coordinate_element().embedded_superdegree *)
 | DIfCellwiseConstant (t f : dexp)
 | DElemSuper                        (* v.ufl_element().embedded_superdegree *)
 | DElemSuperDefault                 (* ... through element_replace_map, None -> default_degree *)
 | DPower                            (* the body of power, see gen_power *)
 | DIndexed.                         (* the body of indexed, see gen_walk *)

Inductive hname :=
 | h_constant_value | h_constant | h_geometric_quantity | h_spatial_coordinate | h_cell_coordinate
 | h_argument | h_coefficient | h_expr | h_multi_index | h_label | h_reference_value | h_variable
 | h_transposed | h_index_sum | h_indexed | h_component_tensor | h_list_tensor
 | h_positive_restricted | h_negative_restricted | h_conj | h_real | h_imag | h_sum
 | h_grad | h_reference_grad | h_nabla_grad | h_div | h_reference_div | h_nabla_div | h_curl
 | h_reference_curl | h_cell_avg | h_facet_avg | h_product | h_inner | h_dot | h_outer | h_cross
 | h_derivative | h_compound_derivative | h_compound_tensor_operator | h_variable_derivative
 | h_trace | h_determinant | h_cofactor | h_inverse | h_deviatoric | h_skew | h_sym
 | h_abs | h_division | h_power | h_atan2 | h_math_function | h_bessel_function | h_condition
 | h_conditional | h_min_value | h_max_value | h_coordinate_derivative | h_expr_list
 | h_expr_mapping.

Definition table (h : hname) : dexp :=
  match h with
  | h_constant_value | h_constant | h_cell_avg | h_facet_avg => DConst 0
  | h_geometric_quantity => DIfCellwiseConstant (DConst 0) DCoordDegree
  | h_spatial_coordinate => DCoordDegree
  | h_cell_coordinate => DConst 1
  | h_argument => DElemSuper
  | h_coefficient => DElemSuperDefault
  | h_expr => DWarn DAddAll
  | h_multi_index | h_label | h_condition => DNone
  | h_reference_value | h_variable | h_transposed | h_index_sum | h_component_tensor
  | h_positive_restricted | h_negative_restricted | h_conj | h_real | h_imag => DArg 0
  | h_indexed => DIndexed
  | h_list_tensor | h_sum | h_expr_list | h_expr_mapping => DMaxAll
  | h_grad | h_reference_grad | h_nabla_grad | h_div | h_reference_div | h_nabla_div | h_curl
  | h_reference_curl => DReduce
  | h_product | h_inner | h_dot | h_outer | h_cross | h_division => DAddAll
  | h_derivative | h_compound_derivative | h_compound_tensor_operator | h_variable_derivative
  | h_trace | h_determinant | h_cofactor | h_inverse | h_deviatoric | h_skew | h_sym => DRaise
  | h_abs => DIfZero (DArg 0) (DArg 0) (DArg 0)
  | h_power => DPower
  | h_atan2 => DIfAny [DArg 0; DArg 1] (DAdd [DMax [DArg 0; DArg 1]; DConst 2]) (DMax [DArg 0; DArg 1])
  | h_math_function => DIfAny [DArg 0] (DAdd [DArg 0; DConst 2]) (DArg 0)
  | h_bessel_function => DIfAny [DArg 1] (DAdd [DArg 1; DConst 2]) (DArg 1)
  | h_conditional => DMax [DArg 1; DArg 2]
  | h_min_value | h_max_value => DMax [DArg 0; DArg 1]
  | h_coordinate_derivative => DAdd [DArg 0; DArg 2]
  end.

(* interpretation over operand degrees; operands without a degree (multi indices, conditions,
   labels: None) are passed as 0, which no rule of the table reads *)
Section Interp.
Variable quad : bool.
Variable ops : list nat.
Variable special : nat.      (* value of the non-arithmetic rules (terminals, power, indexed) *)
Fixpoint dval (d : dexp) : option nat :=
  match d with
  | DConst n => Some n
  | DNone => Some 0
  | DArg k => Some (nth k ops 0)
  | DAddAll => Some (add_degrees ops)
  | DMaxAll => Some (max_degrees ops)
  | DAdd l => option_map add_degrees
                (fold_right (fun x acc => match dval x, acc with Some v, Some r => Some (v :: r) | _, _ => None end)
                            (Some []) l)
  | DMax l => option_map max_degrees
                (fold_right (fun x acc => match dval x, acc with Some v, Some r => Some (v :: r) | _, _ => None end)
                            (Some []) l)
  | DReduce => Some (reduce_degree quad (nth 0 ops 0))
  | DIfAny cs t f =>
      if existsb (fun c => match dval c with Some 0 => false | Some _ => true | None => false end) cs
      then dval t else dval f
  | DIfZero c t f => match dval c with Some 0 => dval t | Some _ => dval f | None => None end
  | DRaise => None
  | DWarn d => dval d
  | DCoordDegree | DIfCellwiseConstant _ _ | DElemSuper | DElemSuperDefault | DPower | DIndexed =>
      Some special
  end.
End Interp.

(* [estimate] is the interpretation of [table]: one lemma per operator node, for all operand degrees *)
Section TableAgrees.
Variables (quad : bool) (ti : cfg) (fx : bool).
Notation est := (estimate quad ti fx).
Lemma tbl_literal : dval quad [] 0 (table h_constant_value) = Some 0. Proof. reflexivity. Qed.
Lemma tbl_sum a b : dval quad [est a; est b] 0 (table h_sum) = Some (est (Sum a b)). Proof. reflexivity. Qed.
Lemma tbl_product a b : dval quad [est a; est b] 0 (table h_product) = Some (est (Product a b)). Proof. reflexivity. Qed.
Lemma tbl_division a b : dval quad [est a; est b] 0 (table h_division) = Some (est (Division a b)). Proof. reflexivity. Qed.
Lemma tbl_abs a : dval quad [est a] 0 (table h_abs) = Some (est (Abs a)).
Proof. cbn. unfold abs_rule. destruct (est a); reflexivity. Qed.
Lemma tbl_conj a : dval quad [est a] 0 (table h_conj) = Some (est (Conj a)). Proof. reflexivity. Qed.
Lemma tbl_real a : dval quad [est a] 0 (table h_real) = Some (est (Real a)). Proof. reflexivity. Qed.
Lemma tbl_imag a : dval quad [est a] 0 (table h_imag) = Some (est (Imag a)). Proof. reflexivity. Qed.
Lemma tbl_index_sum a i d : dval quad [est a; 0] 0 (table h_index_sum) = Some (est (IndexSum a i d)). Proof. reflexivity. Qed.
Lemma tbl_component_tensor a ix : dval quad [est a; 0] 0 (table h_component_tensor) = Some (est (ComponentTensor a ix)). Proof. reflexivity. Qed.
Lemma tbl_list_tensor es : dval quad (map est es) 0 (table h_list_tensor) = Some (est (ListTensor es)). Proof. reflexivity. Qed.
Lemma tbl_conditional c t f : dval quad [0; est t; est f] 0 (table h_conditional) = Some (est (Conditional c t f)). Proof. reflexivity. Qed.
Lemma tbl_min a b : dval quad [est a; est b] 0 (table h_min_value) = Some (est (MinV a b)). Proof. reflexivity. Qed.
Lemma tbl_max a b : dval quad [est a; est b] 0 (table h_max_value) = Some (est (MaxV a b)). Proof. reflexivity. Qed.
Lemma tbl_math f a : dval quad [est a] 0 (table h_math_function) = Some (est (Math f a)).
Proof. cbn. unfold math_rule. destruct (est a); reflexivity. Qed.
Lemma tbl_bessel k nu x : dval quad [est nu; est x] 0 (table h_bessel_function) = Some (est (Bessel k nu x)).
Proof. cbn. unfold math_rule. destruct (est x); reflexivity. Qed.
Lemma tbl_atan2 a b : dval quad [est a; est b] 0 (table h_atan2) = Some (est (Atan2 a b)).
Proof. cbn. unfold atan2_rule. destruct (est a), (est b); reflexivity. Qed.
Lemma tbl_variable a l : dval quad [est a; 0] 0 (table h_variable) = Some (est (Vari a l)). Proof. reflexivity. Qed.
Lemma tbl_restricted (p : bool) a : dval quad [est a] 0 (table (if p then h_positive_restricted else h_negative_restricted))
                           = Some (est (Restricted p a)). Proof. destruct p; reflexivity. Qed.
Lemma tbl_grad a g : dval quad [est a] 0 (table h_grad) = Some (est (Grad a g)). Proof. reflexivity. Qed.
Lemma tbl_reference_grad a g : dval quad [est a] 0 (table h_reference_grad) = Some (est (RefGrad a g)). Proof. reflexivity. Qed.
Lemma tbl_div a g : dval quad [est a] 0 (table h_div) = Some (est (Div a g)). Proof. reflexivity. Qed.
Lemma tbl_nabla_grad a g : dval quad [est a] 0 (table h_nabla_grad) = Some (est (NablaGrad a g)). Proof. reflexivity. Qed.
Lemma tbl_nabla_div a g : dval quad [est a] 0 (table h_nabla_div) = Some (est (NablaDiv a g)). Proof. reflexivity. Qed.
Lemma tbl_curl a : dval quad [est a] 0 (table h_curl) = Some (est (Curl a)). Proof. reflexivity. Qed.
Lemma tbl_reference_value a sh : dval quad [est a] 0 (table h_reference_value) = Some (est (RefValue a sh)). Proof. reflexivity. Qed.
Lemma tbl_transposed a : dval quad [est a] 0 (table h_transposed) = Some (est (Transposed a)). Proof. reflexivity. Qed.
Lemma tbl_outer a b : dval quad [est a; est b] 0 (table h_outer) = Some (est (Outer a b)). Proof. reflexivity. Qed.
Lemma tbl_inner a b : dval quad [est a; est b] 0 (table h_inner) = Some (est (Inner a b)). Proof. reflexivity. Qed.
Lemma tbl_dot a b : dval quad [est a; est b] 0 (table h_dot) = Some (est (Dot a b)). Proof. reflexivity. Qed.
Lemma tbl_cross a b : dval quad [est a; est b] 0 (table h_cross) = Some (est (Cross a b)). Proof. reflexivity. Qed.
Lemma tbl_power a b : dval quad [est a; est b] (power_rule (est a) (int_exponent b)) (table h_power)
                      = Some (est (Power a b)). Proof. reflexivity. Qed.
Lemma tbl_indexed a mi : dval quad [est a; 0] (indexed_rule fx ti a mi (est a)) (table h_indexed)
                         = Some (est (Indexed a mi)). Proof. reflexivity. Qed.
Lemma tbl_raise : dval quad [] 0 (table h_trace) = None /\ dval quad [] 0 (table h_determinant) = None
  /\ dval quad [] 0 (table h_inverse) = None /\ dval quad [] 0 (table h_cofactor) = None
  /\ dval quad [] 0 (table h_deviatoric) = None /\ dval quad [] 0 (table h_skew) = None
  /\ dval quad [] 0 (table h_sym) = None /\ dval quad [] 0 (table h_compound_tensor_operator) = None.
Proof. repeat split. Qed.
End TableAgrees.
