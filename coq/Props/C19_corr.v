(* C19 - what the generated correspondence cases (coq/Gen/C19_trav_*.v, C19_dispatch_*.v) rest on:
   consequences of the C19 theorems in the form in which a case on a concrete DAG or handler table
   uses them, so that a case evaluates the recursive specification (map_tree, the traversal's output)
   and never the fold over the caches.  Besides the theorems: the handler of map_expr_dag is invoked
   exactly on the traversal's nodes that the initial vcache lacks; membership in a handler-name list
   through a binary trie. *)
Require Import List Arith NArith Bool.
Require Import UFLV.Props.C19_tree UFLV.Props.C19_post UFLV.Props.C19_traversal UFLV.Props.C19_map
               UFLV.Props.C19_dispatch.
Import ListNotations.

(* the premise [has_cut = false -> forall l, cut l = false] of the lemmas below, when has_cut is [true] *)
Lemma cut_absurd : forall cut : nat -> bool, true = false -> forall l, cut l = false.
Proof. discriminate. Qed.

(* a step leaves the other keys of the vcache alone and makes its node a key *)
Lemma mstep_keys : forall R req f g cut comp s v s',
  mstep R req f g cut comp s v = Some s' ->
  vlookup R v (fst s') <> None /\ forall x, x <> v -> vlookup R x (fst s') = vlookup R x (fst s).
Proof.
  intros R req f g cut comp [vc rc] v s'. unfold mstep.
  destruct (vlookup R v vc) eqn:Ev.
  - intros [= <-]. simpl. split; [congruence|reflexivity].
  - assert (Hk : forall (r : R) (rc' : rcache R), vlookup R v (fst ((v, r) :: vc, rc')) <> None /\
              forall x, x <> v -> vlookup R x (fst ((v, r) :: vc, rc')) = vlookup R x (fst (vc, rc))).
    { intros r rc'. simpl. split.
      - destruct (tree_eq_dec v v); congruence.
      - intros x Hx. destruct (tree_eq_dec x v); congruence. }
    destruct (if cut (label v) then Some (g v) else option_map (f v) (gather R vc (ops v))) as [r|];
      [|discriminate].
    destruct comp; [destruct (rlookup R req r rc)|]; intros [= <-]; apply Hk.
Qed.

(* the handler is called on the nodes of a duplicate-free sequence that the vcache lacks *)
Lemma mcalls_filter : forall R req f g cut comp o s, NoDup o ->
  mfold R req f g cut comp o s <> None ->
  mcalls R req f g cut comp o s
  = Some (filter (fun v => match vlookup R v (fst s) with None => true | Some _ => false end) o).
Proof.
  intros R req f g cut comp. induction o as [|v r IH]; intros s Hnd Hm; simpl; [reflexivity|].
  simpl in Hm. inversion Hnd as [|? ? Hv Hr]; subst.
  destruct (mstep R req f g cut comp s v) as [s'|] eqn:E; [|congruence].
  destruct (mstep_keys _ _ _ _ _ _ _ _ _ E) as [_ Hk].
  rewrite (IH s' Hr Hm). simpl. f_equal.
  rewrite (filter_ext_in _ (fun x => match vlookup R x (fst s) with None => true | Some _ => false end)).
  - destruct (vlookup R v (fst s)); reflexivity.
  - intros x Hx. rewrite Hk; [reflexivity|]. intros ->. contradiction.
Qed.

(* the keys of the vcache after a fold are those before it and the nodes folded over *)
Lemma mfold_keys : forall R req f g cut comp o s s', mfold R req f g cut comp o s = Some s' ->
  forall x, vlookup R x (fst s') <> None -> vlookup R x (fst s) <> None \/ In x o.
Proof.
  intros R req f g cut comp. induction o as [|v r IH]; intros s s' H x Hx; simpl in H.
  - inversion H; subst. auto.
  - destruct (mstep R req f g cut comp s v) as [s1|] eqn:E; [|discriminate].
    destruct (IH s1 s' H x Hx) as [H1|H1]; [|right; right; exact H1].
    destruct (tree_eq_dec x v) as [->|Hn]; [right; left; reflexivity|].
    left. rewrite <- (proj2 (mstep_keys _ _ _ _ _ _ _ _ _ E) x Hn). exact H1.
Qed.

Section MapEval.
Variables (R : Type) (req : R -> R -> bool) (f : tree -> list R -> R) (g : tree -> R).
Variables (cut : nat -> bool) (has_cut : bool).
Hypothesis Hc : has_cut = false -> forall l, cut l = false.
Hypothesis Hreq : forall a b, req a b = true <-> a = b.

Lemma map_closed : forall comp t vc0 rc0, vc_ok R req f g cut vc0 ->
  map_expr_dag R req f g cut has_cut comp t vc0 rc0 = Some (map_tree R f g cut t).
Proof.
  intros comp t vc0 rc0 Hok. destruct (eqv_of_eq R req f Hreq) as (E1 & E2 & E3 & E4).
  destruct (C19_map R req f g cut has_cut Hc E1 E2 E3 E4 comp t vc0 rc0 Hok) as (r & -> & He).
  f_equal. apply Hreq. exact He.
Qed.

Lemma calls_closed : forall comp t vc0 rc0 o, vc_ok R req f g cut vc0 ->
  option_map fst (traversal cut has_cut t) = Some o ->
  handler_calls R req f g cut has_cut comp t vc0 rc0
  = Some (filter (fun v => match vlookup R v vc0 with None => true | Some _ => false end) o).
Proof.
  intros comp t vc0 rc0 o Hok Ho. pose proof (map_closed comp t vc0 rc0 Hok) as Hm.
  unfold map_expr_dag in Hm. unfold handler_calls.
  destruct (traversal_props cut has_cut Hc t) as (o' & v & Ht & Hnd & _).
  rewrite Ht in *. simpl in Ho. inversion Ho; subst o'.
  apply (mcalls_filter R req f g cut comp o (vc0, rc0) Hnd).
  destruct (mfold R req f g cut comp o (vc0, rc0)); congruence.
Qed.

Lemma vc_ok_nil : vc_ok R req f g cut [].
Proof. intros x r H. discriminate. Qed.

Lemma map_intro : forall comp t,
  map_expr_dag R req f g cut has_cut comp t [] [] = Some (map_tree R f g cut t).
Proof. intros. apply map_closed, vc_ok_nil. Qed.

Lemma calls_intro : forall comp t o, option_map fst (traversal cut has_cut t) = Some o ->
  handler_calls R req f g cut has_cut comp t [] [] = Some o.
Proof.
  intros comp t o Ho. rewrite (calls_closed comp t [] [] o vc_ok_nil Ho).
  f_equal. clear Ho. induction o as [|a l IH]; simpl; [reflexivity|f_equal; exact IH].
Qed.

(* a first mapping from empty caches leaves a sound vcache whose keys are the nodes it traversed *)
Lemma first_run : forall comp t o, option_map fst (traversal cut has_cut t) = Some o ->
  exists vc rc,
    map_expr_dag_st R req f g cut has_cut comp t [] [] = Some (Some (map_tree R f g cut t), vc, rc)
    /\ vc_ok R req f g cut vc /\ forall x, vlookup R x vc <> None <-> In x o.
Proof.
  intros comp t o Ho. pose proof (map_intro comp t) as Hm.
  unfold map_expr_dag in Hm. unfold map_expr_dag_st.
  destruct (traversal_props cut has_cut Hc t) as (o' & v & Ht & _ & Hord & _).
  rewrite Ht in *. simpl in Ho. inversion Ho; subst o'.
  destruct (eqv_of_eq R req f Hreq) as (E1 & E2 & E3 & E4).
  destruct (mfold_ok R req f g cut E1 E2 E3 E4 comp o [] [] [] vc_ok_nil) as (vc & rc & Hf & Hok & Hdom).
  - simpl; tauto.
  - exact Hord.
  - rewrite Hf in *. exists vc, rc. rewrite Hm. repeat split; auto.
    intros Hx. destruct (mfold_keys _ _ _ _ _ _ _ _ _ Hf x Hx) as [H|H]; [simpl in H; congruence|exact H].
Qed.

(* a second mapping with the caches of a first one returns the recursive map as well, and calls the
   handler on the nodes the first one has not traversed *)
Lemma second_run : forall comp t1 t o1 o,
  option_map fst (traversal cut has_cut t1) = Some o1 -> option_map fst (traversal cut has_cut t) = Some o ->
  exists vc rc,
    map_expr_dag_st R req f g cut has_cut comp t1 [] [] = Some (Some (map_tree R f g cut t1), vc, rc)
    /\ map_expr_dag R req f g cut has_cut comp t vc rc = Some (map_tree R f g cut t)
    /\ handler_calls R req f g cut has_cut comp t vc rc = Some (filter (fun v => negb (mem v o1)) o).
Proof.
  intros comp t1 t o1 o Ho1 Ho. destruct (first_run comp t1 o1 Ho1) as (vc & rc & H1 & Hok & Hk).
  exists vc, rc. split; [exact H1|]. split; [apply map_closed; exact Hok|].
  rewrite (calls_closed comp t vc rc o Hok Ho). f_equal.
  apply filter_ext. intros v. specialize (Hk v). unfold mem.
  destruct (vlookup R v vc); destruct (in_dec tree_eq_dec v o1); try reflexivity; exfalso.
  - apply n, Hk. discriminate.
  - apply (proj2 Hk i). reflexivity.
Qed.
End MapEval.

(* ---- membership in a handler-name list through a binary trie (built once per handler table) ---- *)
Inductive bt := Lf | Nd (l : bt) (b : bool) (r : bt).

Fixpoint bt_get (p : positive) (t : bt) {struct t} : bool :=
  match t with
  | Lf => false
  | Nd l b r => match p with xH => b | xO q => bt_get q l | xI q => bt_get q r end
  end.

Fixpoint bt_set (p : positive) (t : bt) : bt :=
  match p, t with
  | xH, Lf => Nd Lf true Lf
  | xH, Nd l _ r => Nd l true r
  | xO q, Lf => Nd (bt_set q Lf) false Lf
  | xO q, Nd l b r => Nd (bt_set q l) b r
  | xI q, Lf => Nd Lf false (bt_set q Lf)
  | xI q, Nd l b r => Nd l b (bt_set q r)
  end.

Lemma bt_get_set : forall q p t, bt_get p (bt_set q t) = (Pos.eqb p q || bt_get p t)%bool.
Proof.
  induction q; intros [p|p|] [|l b r]; simpl; rewrite ?IHq; try reflexivity;
    try (destruct (Pos.eqb p q); reflexivity); destruct p; reflexivity.
Qed.

Definition bt_of (l : list N) : bt := fold_right (fun y => bt_set (N.succ_pos y)) Lf l.

Lemma hasl_bt : forall l x, hasl l x = bt_get (N.succ_pos x) (bt_of l).
Proof.
  induction l as [|y l IH]; intros x; simpl; [reflexivity|].
  rewrite bt_get_set, <- IH. f_equal.
  destruct (N.eqb_spec x y) as [->|Hn]; symmetry; [apply Pos.eqb_refl|].
  apply Pos.eqb_neq. intros H. apply Hn.
  rewrite <- (N.pos_pred_succ x), <- (N.pos_pred_succ y), H. reflexivity.
Qed.

Lemma resolve_bt : forall l ms, map (resolve (hasl l)) ms
  = (let t := bt_of l in map (resolve (fun x => bt_get (N.succ_pos x) t)) ms).
Proof.
  intros. cbv zeta. apply map_ext. intros m. unfold resolve.
  induction m as [|a m IH]; simpl; [reflexivity|]. rewrite hasl_bt, IH. reflexivity.
Qed.

(* the `let` keeps the trie shared when the right-hand side is evaluated lazily *)
Lemma disp_intro : forall l ms e,
  (let t := bt_of l in map (resolve (fun x => bt_get (N.succ_pos x) t)) ms) = e ->
  map (resolve (hasl l)) ms = e.
Proof. intros l ms e <-. apply resolve_bt. Qed.
