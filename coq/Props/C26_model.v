(* C26 - reference cell topology.  Model of ufl/cell.py: the table of named cells is regenerated
   from /repo into Gen/C26_table.v on every run; this file holds the table-independent definitions
   and the theorems that hold for EVERY table entry / every pair of (tdim, name) keys. *)
Require Import List ZArith Bool Arith.
Require Import UFLV.Props.Order.
Import ListNotations.

(* a cell name is the list of the code points of its Python string *)
Definition name := list nat.
(* table entry: name and, per dimension, the names of the sub-entities *)
Definition entry := (name * list (list name))%type.
Definition table := list entry.

Fixpoint name_eqb (a b : name) : bool :=
  match a, b with
  | [], [] => true
  | x :: a', y :: b' => Nat.eqb x y && name_eqb a' b'
  | _, _ => false
  end.

(* Python's str < str : lexicographic by code point, proper prefix is smaller.  Written so that it is
   convertible to [lexb Nat.ltb Nat.eqb]: [name_strict_total] is proved through that conversion. *)
Fixpoint name_ltb (a b : name) : bool :=
  match a, b with
  | [], [] => false
  | [], _ :: _ => true
  | _ :: _, [] => false
  | x :: a', y :: b' => if Nat.ltb x y then true else if Nat.eqb x y then name_ltb a' b' else false
  end.

Lemma name_eqb_eq a b : name_eqb a b = true <-> a = b.
Proof.
  revert b; induction a as [|x a IH]; intros [|y b]; cbn; try (split; congruence).
  rewrite andb_true_iff, Nat.eqb_eq, IH. split; [intros [-> ->]; auto | intros H; inversion H; auto].
Qed.

Lemma name_strict_total : strict_total name_ltb.
Proof. exact (lexb_strict_total Nat.ltb Nat.eqb Nat.eqb_eq nat_strict_total). Qed.

Lemma name_ltb_asym a b : name_ltb a b = true -> name_ltb b a = false.
Proof. exact (strict_asym _ (st_irrefl name_strict_total) (st_trans name_strict_total) a b). Qed.

(* AbstractCell.__lt__ for two cells of the same class: compare tdim, then Cell._lt = name order *)
Definition cell_ltb (c1 c2 : nat * name) : bool :=
  if negb (Nat.eqb (fst c1) (fst c2)) then Nat.ltb (fst c1) (fst c2) else name_ltb (snd c1) (snd c2).

Lemma cell_strict_total : strict_total cell_ltb.
Proof.
  apply (strict_total_ext (lexprod Nat.ltb Nat.eqb name_ltb)).
  - intros c1 c2. unfold cell_ltb, lexprod. destruct (Nat.eqb (fst c1) (fst c2)); reflexivity.
  - exact (lexprod_strict_total _ _ _ Nat.eqb_eq nat_strict_total name_strict_total).
Qed.

Theorem cell_lt_irrefl c : cell_ltb c c = false.
Proof. exact (st_irrefl cell_strict_total c). Qed.

Theorem cell_lt_trans c1 c2 c3 : cell_ltb c1 c2 = true -> cell_ltb c2 c3 = true -> cell_ltb c1 c3 = true.
Proof. exact (st_trans cell_strict_total c1 c2 c3). Qed.

Theorem cell_lt_total c1 c2 : c1 <> c2 -> cell_ltb c1 c2 = true \/ cell_ltb c2 c1 = true.
Proof. exact (st_total cell_strict_total c1 c2). Qed.

Theorem cell_lt_asym c1 c2 : cell_ltb c1 c2 = true -> cell_ltb c2 c1 = false.
Proof. exact (strict_asym _ cell_lt_irrefl cell_lt_trans c1 c2). Qed.

(* ---- table accessors (Cell.__init__ and the AbstractCell properties) ---- *)
Fixpoint lookup (t : table) (n : name) : option (list (list name)) :=
  match t with
  | [] => None
  | (m, e) :: t' => if name_eqb m n then Some e else lookup t' n
  end.
Definition tdim_of (e : list (list name)) : nat := length e - 1.
Definition num_sub (e : list (list name)) (d : nat) : nat := length (nth d e []).
Definition sub_ents (e : list (list name)) (d : nat) : list name := nth d e [].
(* dim = tdim - k with Python semantics: negative dimension gives 0 / () *)
Definition num_codim (e : list (list name)) (k : nat) : nat :=
  if Nat.ltb (tdim_of e) k then 0 else num_sub e (tdim_of e - k).
Definition ents_codim (e : list (list name)) (k : nat) : list name :=
  if Nat.ltb (tdim_of e) k then [] else sub_ents e (tdim_of e - k).

(* Euler characteristic of a polytope including the cell itself: sum_d (-1)^d n_d = 1 *)
Fixpoint alt_sum (l : list (list name)) (sign : Z) : Z :=
  match l with [] => 0%Z | x :: r => (sign * Z.of_nat (length x) + alt_sum r (- sign))%Z end.
Definition euler_ok (e : list (list name)) : bool := Z.eqb (alt_sum e 1%Z) 1%Z.

(* every listed sub-entity of dimension d is a cell of the table with topological dimension d *)
Definition subentity_dims_ok (t : table) (e : list (list name)) : bool :=
  forallb (fun p : nat * list name =>
             forallb (fun n => match lookup t n with
                               | Some e' => Nat.eqb (tdim_of e') (fst p)
                               | None => false end) (snd p))
          (combine (seq 0 (length e)) e).
(* the top-dimensional entity is the cell itself, exactly once *)
Definition top_ok (n : name) (e : list (list name)) : bool :=
  match nth (tdim_of e) e [] with [m] => name_eqb m n | _ => false end.
(* every dimension up to the cell's has at least one entity *)
Definition nonempty_ok (e : list (list name)) : bool := forallb (fun l => negb (Nat.eqb (length l) 0)) e.

Definition entry_ok (t : table) (x : entry) : bool :=
  euler_ok (snd x) && subentity_dims_ok t (snd x) && top_ok (fst x) (snd x) && nonempty_ok (snd x)
  && negb (Nat.eqb (length (snd x)) 0).
Definition table_ok (t : table) : bool := forallb (entry_ok t) t.

(* facets / ridges / peaks are the entities of dimension tdim-1/-2/-3 *)
Definition codim_ok (t : table) (e : list (list name)) (k : nat) : bool :=
  forallb (fun n => match lookup t n with
                    | Some e' => Nat.eqb (tdim_of e' + k) (tdim_of e)
                    | None => false end) (ents_codim e k).

(* ---- tensor product cells: f-vector of a product polytope is the convolution ---- *)
Definition fvec (e : list (list name)) : list nat := map (@length name) e.
Fixpoint conv_at (a b : list nat) (k : nat) : nat :=
  (* sum_{i+j=k} a_i b_j *)
  match a with
  | [] => 0
  | x :: a' => x * nth k b 0 + match k with 0 => 0 | S k' => conv_at a' b k' end
  end.
Definition conv (a b : list nat) : list nat :=
  map (conv_at a b) (seq 0 (length a + length b - 1)).
Definition fvec_prod (fs : list (list nat)) : list nat := fold_left conv fs [1].

(* TensorProductCell.num_sub_entities as implemented, on f-vectors of the factors *)
Definition tp_tdim (fs : list (list nat)) : nat := fold_left (fun acc f => acc + (length f - 1)) fs 0.
Definition tp_num (fs : list (list nat)) (d : nat) : option nat :=
  let td := tp_tdim fs in
  if Nat.ltb td d then Some 0
  else if Nat.eqb d 0 then Some (fold_left (fun acc f => acc * nth 0 f 0) fs 1)
  else if Nat.eqb d (td - 1) then
    Some (fold_left (fun acc f => acc + (if Nat.eqb (length f - 1) 0 then 0 else nth (length f - 2) f 0)) fs 0)
  else if Nat.eqb d td then Some 1
  else None.
Definition tp_agrees (fs : list (list nat)) : bool :=
  forallb (fun d => match tp_num fs d with
                    | Some n => Nat.eqb n (nth d (fvec_prod fs) 0)
                    | None => true end) (seq 0 (tp_tdim fs + 1)).
Fixpoint alt_sum_nat (l : list nat) (sign : Z) : Z :=
  match l with [] => 0%Z | x :: r => (sign * Z.of_nat x + alt_sum_nat r (- sign))%Z end.
Definition tp_euler (fs : list (list nat)) : bool := Z.eqb (alt_sum_nat (fvec_prod fs) 1%Z) 1%Z.

Print Assumptions cell_lt_trans.
Print Assumptions cell_lt_total.
