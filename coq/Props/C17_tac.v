(* C17 - the tactic of the generated obligations coq/Gen/C17_t2_*.v.

   An obligation den None (propagated) = den None (integrand) is, once the algebra's operations are
   computed ([norm_goal]), an identity between polynomial expressions over atoms env side k id c.
   The two sides differ in the side at which a terminal is read where the rules dropped or moved a
   restriction; the continuity laws that the generated Section assumes (Hsi: kinds that do not depend
   on the side; Hcg: continuous coefficients; Hn: the facet normal of an affine mesh changes sign)
   bring such atoms to one form, and [ring] closes the rest.  [env], the laws, the kind [kfn] of the
   facet normal and the symbols of the algebra are Section variables of the generated files and are
   passed as arguments, under the names they have in coqgen.HEADER and py/props/C17.py. *)
Require Import UFLV.Core.Tac.

(* One atom read at a side is rewritten to its side-free form.  The side condition of a law is given
   as [eq_refl], so that a law that does not apply is rejected when the term is typed, before any
   rewriting; a rewrite whose side condition fails afterwards costs as much as one that succeeds,
   and the last call of a [repeat] tries every atom of the goal. *)
Ltac canon1 env Hsi Hcg Hn kfn Ha :=
  match goal with
  | |- context [env (Some ?p) ?k ?id ?c] => rewrite (Hsi k id c (Some p) None eq_refl)
  | |- context [env (Some ?p) 0 ?id ?c] => rewrite (Hcg id c (Some p) None eq_refl)
  | |- context [env (Some false) kfn ?id ?c] => rewrite (Hn Ha id c)
  end.

(* [ring] takes an application of an uninterpreted symbol as an atom: two of them with arguments that
   are equal only up to the ring laws are made syntactically equal first.  [same1 g] does one such
   step for a unary [g] (possibly a partial application), [same2 g] for a binary one. *)
Ltac try_unify X Y := lazymatch X with Y => fail | _ => replace X with Y by ring end.
Ltac same1 g :=
  match goal with |- context [g ?X] => match goal with |- context [g ?Y] => try_unify X Y end end.
Ltac same2 g :=
  match goal with
  | |- context [g ?X ?P] =>
      match goal with |- context [g ?Y ?Q] => first [ try_unify X Y | try_unify P Q ] end
  end.
Ltac same abs fn conj re im Dx DX div pow atan2 min_ max_ cmp cond_ :=
  first [ same1 abs
        | match goal with |- context [fn ?f _] => same1 (fn f) end
        | same1 conj | same1 re | same1 im
        | match goal with |- context [Dx ?j _] => same1 (Dx j) end
        | match goal with |- context [DX ?j _] => same1 (DX j) end
        | match goal with
          | |- context [div ?A ?X] =>
              match goal with |- context [div ?B ?Y] => first [ try_unify X Y | try_unify A B ] end
          end
        | same2 pow | same2 atan2 | same2 min_ | same2 max_
        | match goal with |- context [cmp ?o _ _] => same2 (cmp o) end
        | match goal with
          | |- context [cond_ _ ?X ?P] =>
              match goal with |- context [cond_ _ ?Y ?Q] => first [ try_unify X Y | try_unify P Q ] end
          end ].

(* [Ha] : affine_mesh = true or false, the premise of the obligation *)
Ltac close env Hsi Hcg Hn kfn abs fn conj re im Dx DX div pow atan2 min_ max_ cmp cond_ :=
  let Ha := fresh "Ha" in
  intros Ha; norm_goal; repeat canon1 env Hsi Hcg Hn kfn Ha;
  first [ reflexivity | ring
        | repeat same abs fn conj re im Dx DX div pow atan2 min_ max_ cmp cond_; first [ reflexivity | ring ] ].
