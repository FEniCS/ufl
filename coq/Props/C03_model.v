(* C03 - Spatial derivatives are lowered to exact derivatives of terminals.

   Hand-written part.  [Grad] denotes an arbitrary family of functions D j : K -> K (Core/Den.v).
   This file shows, for EVERY UFL algebra and EVERY family D of derivations that satisfy the chain-rule
   laws listed as Section hypotheses, that the differentiation rules of GradRuleset compose to the
   exact derivative:

     dj g j e        the j-th partial derivative of a scalar-valued expression e (the rules of
                     GenericDerivativeRuleset/GradRuleset read component-wise: sum, product, quotient,
                     power (literal and general exponent), math functions, abs, conj/real/imag,
                     conditional, min/max, atan2, indexed terminals and indexed Grad^k(terminal),
                     index sums, variables, restrictions, literals, constants, x, Identity)
     grad_model g e  the gradient [dj 0 e; ...; dj (g-1) e]
     AD e            apply_derivatives on expressions whose derivative nodes are (e').dx(j),
                     arbitrarily nested

   C03_dj_sound, C03_grad_sound, C03_AD_value hold for ALL expressions (outside the modelled fragment
   the model leaves the derivative node in place, which is trivially value preserving);
   C03_dj_normal / C03_AD_normal_form show that inside the scalar fragment [sfrag] the result has
   derivatives applied to terminals only ([grad_normal], the same boolean that the per-run traces
   of the real apply_derivatives are checked with). *)
Require Import UFLV.Core.Facts.

(* normal form: derivatives act on terminals only *)

Fixpoint is_gradk_term (e : expr) : bool :=
  match e with Term _ _ _ => true | Grad a _ => is_gradk_term a | _ => false end.
Fixpoint is_refgradk_term (e : expr) : bool :=
  match e with
  | Term _ _ _ => true
  | RefValue (Term _ _ _) _ => true
  | RefGrad a _ => is_refgradk_term a
  | _ => false
  end.

Fixpoint grad_normal (e : expr) : bool :=
  match e with
  | Zero _ _ | IntV _ | RealV _ _ | CplxV _ _ _ _ | RatV _ _ | Identity _ | PermSym _ | Term _ _ _ => true
  | Grad a _ => is_gradk_term a
  | RefGrad a _ => is_refgradk_term a
  | Div _ _ | NablaGrad _ _ | NablaDiv _ _ | Curl _ => false
  | Sum a b | Product a b | Division a b | Power a b | MinV a b | MaxV a b | Atan2 a b
  | Bessel _ a b | Outer a b | Inner a b | Dot a b | Cross a b => grad_normal a && grad_normal b
  | Abs a | Conj a | Real a | Imag a | Indexed a _ | IndexSum a _ _ | ComponentTensor a _
  | Math _ a | Vari a _ | Restricted _ a | RefValue a _ | Transposed a | Perp a | Trace a
  | Determinant a | Inverse a | Cofactor a | Deviatoric a | Skew a | Sym a => grad_normal a
  | ListTensor es => (fix all (l : list expr) := match l with [] => true | x :: t => grad_normal x && all t end) es
  | Conditional c t f => cond_normal c && grad_normal t && grad_normal f
  end
with cond_normal (c : cond) : bool :=
  match c with
  | Cmp _ a b => grad_normal a && grad_normal b
  | AndC a b | OrC a b => cond_normal a && cond_normal b
  | NotC a => cond_normal a
  end.


Definition KX : nat := 10.          (* terminal kind of SpatialCoordinate (py/ufl2coq.py) *)

Definition sign_e (a : expr) : expr :=
  Conditional (Cmp CEQ (Real a) (IntV 0)) (IntV 0)
              (Conditional (Cmp CLT (Real a) (IntV 0)) (IntV (-1)) (IntV 1)).

(* f'(a) for the math functions, as UFL expressions *)
Definition dmath (f : mathfn) (a : expr) : option expr :=
  match f with
  | FSqrt => Some (Division (IntV 1) (Product (IntV 2) (Math FSqrt a)))
  | FExp => Some (Math FExp a)
  | FLn => Some (Division (IntV 1) a)
  | FCos => Some (Product (IntV (-1)) (Math FSin a))
  | FSin => Some (Math FCos a)
  | FTan => Some (Division (IntV 2) (Sum (Math FCos (Product (IntV 2) a)) (IntV 1)))
  | FCosh => Some (Math FSinh a)
  | FSinh => Some (Math FCosh a)
  | FTanh => Some (Power (Division (Product (IntV 2) (Math FCosh a))
                                   (Sum (Math FCosh (Product (IntV 2) a)) (IntV 1))) (IntV 2))
  | FAcos => Some (Division (IntV (-1)) (Math FSqrt (Sum (IntV 1) (Product (IntV (-1)) (Power a (IntV 2))))))
  | FAsin => Some (Division (IntV 1) (Math FSqrt (Sum (IntV 1) (Product (IntV (-1)) (Power a (IntV 2))))))
  | FAtan => Some (Division (IntV 1) (Sum (IntV 1) (Power a (IntV 2))))
  | FErf => None         (* the literal 2/sqrt(pi) is a rounded float: covered by the traces only *)
  end.

Section Model.
Variable cst : nat -> nat -> bool.     (* terminals (kind, id) that are constant on each cell *)
Variable g : nat.                      (* geometric dimension *)

Definition is_lit (e : expr) : bool :=
  match e with IntV _ | RealV _ _ | RatV _ _ | CplxV _ _ _ _ => true | _ => false end.

(* [dj] has the value of each rule's result, not always its expression: the Power rule's shortcut
   fp * g * f**(g-1), which the implementation takes whenever the exponent's derivative is a Zero node,
   is taken for a positive integer literal only (with g-1 folded); every other exponent gets the general
   rule, which has the same value then. *)
Fixpoint dj (j : nat) (e : expr) {struct e} : expr :=
  let fallback := Indexed (Grad e g) [Fixed j] in
  match e with
  | Zero sh fi => Zero sh fi
  | IntV _ | RealV _ _ | RatV _ _ | CplxV _ _ _ _ | Identity _ | PermSym _ => Zero [] []
  | Term k id sh => if cst k id then Zero [] [] else fallback
  | Indexed a mi =>
      match a with
      | Term k id sh =>
          if cst k id then Zero [] (mi_free mi sh)
          else if Nat.eqb k KX && Nat.eqb (length mi) 1 then Indexed (Identity g) (mi ++ [Fixed j])
          else Indexed (Grad a g) (mi ++ [Fixed j])
      | Identity _ => Zero [] (mi_free mi (shape a))
      | _ => Indexed (Grad a g) (mi ++ [Fixed j])
      end
  | Sum a b => Sum (dj j a) (dj j b)
  | Product a b => Sum (Product (dj j a) b) (Product a (dj j b))
  | Division a b => Division (Sum (dj j a) (Product (IntV (-1)) (Product (Division a b) (dj j b)))) b
  | Power a b =>
      match b with
      | IntV (Zpos p) => Product (Product (dj j a) (IntV (Zpos p))) (Power a (IntV (Zpos p - 1)))
      | _ => Product (Power a (Sum b (IntV (-1))))
                     (Sum (Product b (dj j a)) (Product (Product a (Math FLn a)) (dj j b)))
      end
  | Abs a => Product (sign_e a) (dj j a)
  | Conj a => Conj (dj j a)
  | Real a => Real (dj j a)
  | Imag a => Imag (dj j a)
  | IndexSum a i d => IndexSum (dj j a) i d
  | Conditional c t f => Conditional c (dj j t) (dj j f)
  | MaxV a b =>
      let dc := Conditional (Cmp CGT a b) (IntV 1) (IntV 0) in
      Sum (Product dc (dj j a)) (Product (Sum (IntV 1) (Product (IntV (-1)) dc)) (dj j b))
  | MinV a b =>
      let dc := Conditional (Cmp CLT a b) (IntV 1) (IntV 0) in
      Sum (Product dc (dj j a)) (Product (Sum (IntV 1) (Product (IntV (-1)) dc)) (dj j b))
  | Math f a => match dmath f a with Some d => Product (dj j a) d | None => fallback end
  | Atan2 a b =>
      Division (Sum (Product b (dj j a)) (Product (IntV (-1)) (Product a (dj j b))))
               (Sum (Product a a) (Product b b))
  | Vari a _ => dj j a
  | Restricted p a => Restricted p (dj j a)
  | _ => fallback
  end.

Definition grad_model (e : expr) : expr := ListTensor (map (fun j => dj j e) (seq 0 g)).

(* apply_derivatives on expressions whose derivative nodes are  (e').dx(j) = Indexed (Grad e' g) [Fixed j] *)
Fixpoint AD (e : expr) {struct e} : expr :=
  match e with
  | Indexed a mi =>
      match a, mi with
      | Grad a' _, [Fixed j] => dj j (AD a')
      | _, _ => e
      end
  | Sum a b => Sum (AD a) (AD b)
  | Product a b => Product (AD a) (AD b)
  | Division a b => Division (AD a) (AD b)
  | Power a b => Power (AD a) (AD b)
  | Abs a => Abs (AD a)
  | Conj a => Conj (AD a)
  | Real a => Real (AD a)
  | Imag a => Imag (AD a)
  | IndexSum a i d => IndexSum (AD a) i d
  | Conditional c t f => Conditional c (AD t) (AD f)
  | MaxV a b => MaxV (AD a) (AD b)
  | MinV a b => MinV (AD a) (AD b)
  | Math f a => Math f (AD a)
  | Atan2 a b => Atan2 (AD a) (AD b)
  | Vari a l => Vari (AD a) l
  | Restricted p a => Restricted p (AD a)
  | _ => e
  end.

Lemma dj_Power j a b :
  dj j (Power a b) =
  match lit_int b with
  | Some (Zpos p) => Product (Product (dj j a) (IntV (Zpos p))) (Power a (IntV (Zpos p - 1)))
  | _ => Product (Power a (Sum b (IntV (-1))))
                 (Sum (Product b (dj j a)) (Product (Product a (Math FLn a)) (dj j b)))
  end.
Proof. cbn [dj]. apply lit_int_case. Qed.

(* no rule returns an integer literal: differentiating under a [Power] never turns a general
   exponent into a literal one *)
Lemma dj_lit_int j e : lit_int (dj j e) = None.
Proof.
  induction e; try reflexivity.
  - cbn [dj]. destruct (cst k id); reflexivity.
  - rewrite dj_Power. destruct (lit_int e2) as [[]|]; reflexivity.
  - cbn [dj]. destruct e; try reflexivity.
    destruct (cst k id); [reflexivity|]. destruct (Nat.eqb k KX && Nat.eqb (length mi) 1); reflexivity.
  - cbn [dj]. destruct (dmath f e); reflexivity.
  - exact IHe.
Qed.

Lemma AD_lit_int e : lit_int (AD e) = lit_int e.
Proof.
  destruct e; try reflexivity. cbn [AD]. destruct e; try reflexivity.
  destruct mi as [|[jj|ii] [|? ?]]; try reflexivity. apply dj_lit_int.
Qed.

(* the scalar fragment on which the rules reach normal form *)
Fixpoint sfrag (e : expr) : bool :=
  match e with
  | Zero _ _ | IntV _ | RealV _ _ | CplxV _ _ _ _ | RatV _ _ | Identity _ | PermSym _ | Term _ _ _ => true
  | Indexed a _ =>
      match a with Term _ _ _ | Identity _ => true | Grad a' _ => is_gradk_term a' | _ => false end
  | Sum a b | Product a b | Division a b | Power a b | MinV a b | MaxV a b | Atan2 a b => sfrag a && sfrag b
  | Abs a | Conj a | Real a | Imag a | IndexSum a _ _ | Vari a _ | Restricted _ a => sfrag a
  | Math f a => (match f with FErf => false | _ => true end) && sfrag a
  | Conditional c t f => cond_normal c && sfrag t && sfrag f
  | _ => false
  end.

(* expressions with nested (.).dx(j) on which AD reaches normal form *)
Fixpoint afrag (e : expr) : bool :=
  match e with
  | Zero _ _ | IntV _ | RealV _ _ | CplxV _ _ _ _ | RatV _ _ | Identity _ | PermSym _ | Term _ _ _ => true
  | Indexed a mi =>
      match a, mi with
      | Grad a' _, [Fixed _] => afrag a'
      | _, _ => sfrag e
      end
  | Sum a b | Product a b | Division a b | Power a b | MinV a b | MaxV a b | Atan2 a b => afrag a && afrag b
  | Abs a | Conj a | Real a | Imag a | IndexSum a _ _ | Vari a _ | Restricted _ a => afrag a
  | Math f a => (match f with FErf => false | _ => true end) && afrag a
  | Conditional c t f => cond_normal c && afrag t && afrag f
  | _ => false
  end.

Lemma sfrag_normal e : sfrag e = true -> grad_normal e = true.
Proof.
  induction e; cbn [sfrag grad_normal]; intros H; try discriminate; try reflexivity; bsplit; auto.
  destruct e; try discriminate; try reflexivity. cbn [grad_normal]. exact H.
Qed.

Lemma dmath_sfrag f a d : dmath f a = Some d -> sfrag a = true -> sfrag d = true.
Proof.
  destruct f; cbn [dmath]; intros E Ha; inversion E; subst; cbn [sfrag]; rewrite ?Ha; reflexivity.
Qed.

Lemma sfrag_cmp op a b : sfrag a = true -> sfrag b = true -> cond_normal (Cmp op a b) = true.
Proof. intros Ha Hb. cbn [cond_normal]. rewrite (sfrag_normal _ Ha), (sfrag_normal _ Hb). reflexivity. Qed.

Lemma dj_sfrag j e : sfrag e = true -> sfrag (dj j e) = true.
Proof.
  induction e; intros H; cbn [sfrag] in H; try discriminate H; try rewrite dj_Power; cbn [sfrag dj];
    try reflexivity; bsplit.
  all: try (cbn [sfrag]; bsplit; auto; fail).
  all: try (apply sfrag_cmp; assumption).
  - destruct (cst k id); reflexivity.
  - destruct (lit_int e2) as [[|p|p]|]; cbn [sfrag]; rewrite ?IHe1, ?IHe2, ?H, ?H0 by assumption; reflexivity.
  - cbn [sfrag sign_e cond_normal grad_normal]. rewrite (sfrag_normal e H). reflexivity.
  - destruct e; try discriminate.
    + reflexivity.
    + destruct (cst k id); [reflexivity|].
      destruct (Nat.eqb k KX && Nat.eqb (length mi) 1); reflexivity.
    + cbn [sfrag is_gradk_term]. exact H.
  - destruct (dmath f e) as [d|] eqn:Ed.
    + cbn [sfrag]. rewrite IHe by assumption. rewrite (dmath_sfrag _ _ _ Ed H0). reflexivity.
    + destruct f; try discriminate Ed. discriminate H.
Qed.

(* Normal form of the rule set: inside the scalar fragment every derivative in the result acts on a
   terminal (Grad^k of a terminal) *)
Theorem C03_dj_normal : forall j e, sfrag e = true -> grad_normal (dj j e) = true.
Proof. intros j e H. apply sfrag_normal, dj_sfrag, H. Qed.

Lemma AD_sfrag : forall e, afrag e = true -> sfrag (AD e) = true.
Proof.
  fix IH 1. intros e. destruct e; cbn [afrag AD sfrag]; intros H; try discriminate H; try exact H; bsplit; auto.
  destruct e; try exact H. destruct mi as [|[jj|ii] [|? ?]]; try exact H. apply dj_sfrag, IH, H.
Qed.

(* Normal form of apply_derivatives (model) for arbitrarily nested .dx(j) *)
Theorem C03_AD_normal_form : forall e, afrag e = true -> grad_normal (AD e) = true.
Proof. intros e H. apply sfrag_normal, AD_sfrag, H. Qed.

Section Sound.
Variable A : ualg.
Add Field AfC03 : (kfield A).
Open Scope K_scope.
Variable env : side -> nat -> nat -> list nat -> A.
Variable D DX : nat -> A -> A.
Variable ki : A.
Notation den := (@den A env D DX ki).

(* D j is a derivation: additive, Leibniz, quotient rule, commutes with conj/re/im/conditionals *)
Hypothesis HD : forall j, Derivation (D j).
(* chain rule for the math functions *)
Definition kdfn (f : mathfn) (x : A) : A :=
  match f with
  | FSqrt => of_Z 1 / (of_Z 2 * kfn FSqrt x)
  | FExp => kfn FExp x
  | FLn => of_Z 1 / x
  | FCos => of_Z (-1) * kfn FSin x
  | FSin => kfn FCos x
  | FTan => of_Z 2 / (kfn FCos (of_Z 2 * x) + of_Z 1)
  | FCosh => kfn FSinh x
  | FSinh => kfn FCosh x
  | FTanh => kpown (of_Z 2 * kfn FCosh x / (kfn FCosh (of_Z 2 * x) + of_Z 1)) 2
  | FAcos => of_Z (-1) / kfn FSqrt (of_Z 1 + of_Z (-1) * kpown x 2)
  | FAsin => of_Z 1 / kfn FSqrt (of_Z 1 + of_Z (-1) * kpown x 2)
  | FAtan => of_Z 1 / (of_Z 1 + kpown x 2)
  | FErf => k0                  (* never used: [Hfn] excludes FErf, as [dmath] does *)
  end.
Hypothesis Hfn : forall j f x, f <> FErf -> D j (kfn f x) = D j x * kdfn f x.
(* power rule (general exponent), and derivatives of abs / max / min / atan2 where they exist *)
Hypothesis Hpow : forall j x y,
  D j (kpow x y) = kpow x (y + of_Z (-1)) * (y * D j x + x * kfn FLn x * D j y).
Definition ksign (x : A) : A :=
  kcond (bcmp CEQ (kre x) (of_Z 0)) (of_Z 0) (kcond (bcmp CLT (kre x) (of_Z 0)) (of_Z (-1)) (of_Z 1)).
Hypothesis Habs : forall j x, D j (kabs x) = ksign x * D j x.
Hypothesis Hmax : forall j x y, D j (kmax x y) =
  kcond (bcmp CGT x y) (of_Z 1) (of_Z 0) * D j x
  + (of_Z 1 + of_Z (-1) * kcond (bcmp CGT x y) (of_Z 1) (of_Z 0)) * D j y.
Hypothesis Hmin : forall j x y, D j (kmin x y) =
  kcond (bcmp CLT x y) (of_Z 1) (of_Z 0) * D j x
  + (of_Z 1 + of_Z (-1) * kcond (bcmp CLT x y) (of_Z 1) (of_Z 0)) * D j y.
Hypothesis Hatan2 : forall j x y, D j (katan2 x y) = (y * D j x + of_Z (-1) * (x * D j y)) / (x * x + y * y).
Hypothesis Hki : forall j, D j ki = k0.
(* geometry: cellwise constant terminals, and dx_i/dx_j = delta_ij *)
Hypothesis Hcst : forall s k id c j, cst k id = true -> D j (env s k id c) = k0.
Hypothesis Hx : forall s id i j, D j (env s KX id [i]) = if Nat.eqb i j then k1 else k0.

Lemma den_grad_app s rho a gg c j : den s rho (Grad a gg) (c ++ [j]) = D j (den s rho a c).
Proof. apply den_Grad_snoc. Qed.

Lemma den_indexed_grad s rho a gg mi j :
  den s rho (Indexed (Grad a gg) (mi ++ [Fixed j])) [] = D j (den s rho (Indexed a mi) []).
Proof. cbn [Den.den]. rewrite map_app. cbn [map idxval]. rewrite split_last_app. reflexivity. Qed.

Lemma den_fallback s rho e j : den s rho (Indexed (Grad e g) [Fixed j]) [] = D j (den s rho e []).
Proof. reflexivity. Qed.

Lemma den_dmath s rho f a d : dmath f a = Some d -> den s rho d [] = kdfn f (den s rho a []).
Proof. destruct f; cbn [dmath]; intros E; inversion E; subst; reflexivity. Qed.

Lemma dmath_not_erf f a d : dmath f a = Some d -> f <> FErf.
Proof. destruct f; cbn [dmath]; intros E; discriminate. Qed.

Theorem C03_dj_sound : forall e s rho j, den s rho (dj j e) [] = D j (den s rho e []).
Proof.
  induction e; intros s rho j.
  all: pose proof (dconst_subfield _ _ (HD j)) as C; pose proof (HD j) as [Dadd Dmul Ddiv Dconj Dre Dim Dcond].
  (* literals are constants of D j *)
  all: try (symmetry; apply (den_const_sf A env D DX ki _ C (Hki j)); reflexivity).
  (* where no rule applies ([fallback] in [dj]) the derivative node stays *)
  all: try reflexivity.
  (* the cases with a rule, in the order of the constructors of [expr]: D j is pushed through the
     operator and the induction hypothesis used on the operands; what results is the value of the rule's
     expression by definition of [dj] and [den] *)
  - (* Term *) cbn [dj]. destruct (cst k id) eqn:Ec; [|reflexivity]. symmetry. apply Hcst, Ec.
  - (* Sum *) rewrite den_Sum, Dadd, <- (IHe1 s rho j), <- (IHe2 s rho j). reflexivity.
  - (* Product *) rewrite den_Product, Dmul, <- (IHe1 s rho j), <- (IHe2 s rho j). reflexivity.
  - (* Division *) rewrite den_Division, Ddiv, sub_opp_mul, <- (IHe1 s rho j), <- (IHe2 s rho j). reflexivity.
  - (* Power *)
    rewrite dj_Power, den_Power. destruct (lit_int e2) as [[|p|p]|] eqn:E; cbn [pow_z].
    3,4: rewrite Hpow, <- (IHe1 s rho j), <- (IHe2 s rho j); reflexivity.
    + apply lit_int_Some in E. subst e2. cbn [Den.den dj of_Z]. rewrite (sf_1 _ _ C). ring.
    + rewrite (d_kpown_pos _ (D j) _ (of_Z (Z.pos p - 1)) p (HD j)), <- (IHe1 s rho j). reflexivity.
  - (* Abs *) rewrite den_Abs, Habs, <- (IHe s rho j). reflexivity.
  - (* Conj *) rewrite den_Conj, Dconj, <- (IHe s rho j). reflexivity.
  - (* Real *) rewrite den_Real, Dre, <- (IHe s rho j). reflexivity.
  - (* Imag *) rewrite den_Imag, Dim, <- (IHe s rho j). reflexivity.
  - (* Indexed *)
    cbn [dj]. destruct e; try apply den_indexed_grad.
    + symmetry. exact (den_const_sf A env D DX ki _ C (Hki j) (Identity n) eq_refl s rho _).
    + destruct (cst k id) eqn:Ec.
      * symmetry. apply Hcst, Ec.
      * destruct (Nat.eqb k KX && Nat.eqb (length mi) 1) eqn:Ex; [|apply den_indexed_grad].
        apply andb_prop in Ex. destruct Ex as [Ek El].
        apply Nat.eqb_eq in Ek. apply Nat.eqb_eq in El. subst k.
        destruct mi as [|i [|? ?]]; try discriminate.
        cbn [Den.den app map]. rewrite Hx. reflexivity.
  - (* IndexSum *) rewrite den_IndexSum, (d_ksum A (D j) d _ (HD j)). apply ksum_ext. intros k _. apply IHe.
  - (* Conditional *) rewrite den_Conditional, Dcond, <- (IHe1 s rho j), <- (IHe2 s rho j). reflexivity.
  - (* MinV *) rewrite den_MinV, Hmin, <- (IHe1 s rho j), <- (IHe2 s rho j). reflexivity.
  - (* MaxV *) rewrite den_MaxV, Hmax, <- (IHe1 s rho j), <- (IHe2 s rho j). reflexivity.
  - (* Math *) cbn [dj]. destruct (dmath f e) as [d|] eqn:Ed; [|reflexivity].
    rewrite den_Math, Hfn, <- (IHe s rho j), <- (den_dmath s rho _ _ _ Ed) by exact (dmath_not_erf _ _ _ Ed).
    reflexivity.
  - (* Atan2 *) rewrite den_Atan2, Hatan2, <- (IHe1 s rho j), <- (IHe2 s rho j). reflexivity.
  - (* Vari *) exact (IHe s rho j).
  - (* Restricted *) exact (IHe _ rho j).
Qed.

(* the gradient assembled from the directional derivatives denotes Grad *)
Theorem C03_grad_sound : forall e s rho j, j < g ->
  den s rho (grad_model e) [j] = den s rho (Grad e g) [j].
Proof.
  intros e s rho j Hj. unfold grad_model. rewrite den_ListTensor, nth_error_map.
  rewrite (nth_error_nth' _ 0) by (rewrite seq_length; exact Hj). rewrite seq_nth by exact Hj.
  exact (C03_dj_sound e s rho j).
Qed.

(* apply_derivatives (model) preserves the value: arbitrarily nested .dx(j) *)
Theorem C03_AD_value : forall e s rho, den s rho (AD e) [] = den s rho e [].
Proof.
  fix IH 1. intros e s rho. destruct e; try reflexivity; cbn [AD].
  (* AD goes under the operator: both sides are the same function of the operands' values *)
  all: try (rewrite ?den_Sum, ?den_Product, ?den_Division, ?den_Abs, ?den_Conj, ?den_Real, ?den_Imag,
              ?den_Conditional, ?den_MinV, ?den_MaxV, ?den_Math, ?den_Atan2, ?IH; reflexivity).
  - (* Power: AD keeps an exponent literal or not as it was *)
    rewrite !den_Power, AD_lit_int, !IH. reflexivity.
  - (* Indexed: the derivative node (e').dx(j) *) destruct e; try reflexivity. destruct mi as [|[jj|ii] [|? ?]]; try reflexivity.
    rewrite C03_dj_sound. exact (f_equal (D jj) (IH e s rho)).
  - (* IndexSum *) rewrite !den_IndexSum. apply ksum_ext. intros k _. apply IH.
  - (* Vari *) exact (IH e s rho).
  - (* Restricted *) exact (IH e _ rho).
Qed.
End Sound.
End Model.

Print Assumptions C03_dj_sound.
Print Assumptions C03_grad_sound.
Print Assumptions C03_AD_value.
Print Assumptions C03_dj_normal.
Print Assumptions C03_AD_normal_form.

(* the model at work: d/dx_1 d/dx_0 (f * h) and d/dx_0 (sin(x_0) / f), with every derivative on a terminal *)
Definition ex_f := Term 0 0 [].
Definition ex_h := Term 0 1 [].
Definition ex_x := Term KX 0 [2].
Definition ex1 := Indexed (Grad (Indexed (Grad (Product ex_f ex_h) 2) [Fixed 0]) 2) [Fixed 1].
Definition ex2 := Indexed (Grad (Division (Math FSin (Indexed ex_x [Fixed 0])) ex_f) 2) [Fixed 0].
Example C03_ex1_frag : afrag ex1 = true /\ afrag ex2 = true. Proof. split; reflexivity. Qed.
Example C03_ex1_normal : grad_normal (AD (fun _ _ => false) 2 ex1) = true. Proof. reflexivity. Qed.
Example C03_ex1_result : AD (fun _ _ => false) 2 ex1 =
  Sum (Sum (Product (Indexed (Grad (Grad ex_f 2) 2) [Fixed 0; Fixed 1]) ex_h)
           (Product (Indexed (Grad ex_f 2) [Fixed 0]) (Indexed (Grad ex_h 2) [Fixed 1])))
      (Sum (Product (Indexed (Grad ex_f 2) [Fixed 1]) (Indexed (Grad ex_h 2) [Fixed 0]))
           (Product ex_f (Indexed (Grad (Grad ex_h 2) 2) [Fixed 0; Fixed 1]))).
Proof. reflexivity. Qed.
Example C03_ex2_normal : grad_normal (AD (fun _ _ => false) 2 ex2) = true. Proof. reflexivity. Qed.
Check C03_dj_sound.
Check C03_AD_value.
