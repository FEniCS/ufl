(* C27 - Algorithms never mutate their inputs: the metadata-dict channel.

   A tiny aliasing IR for the way compute_form_data.attach_estimated_degrees,
   apply_integral_scaling, Integral.reconstruct, Measure.__call__/reconstruct/__init__ and
   group_form_integrals / accumulate_integrands_with_same_metadata handle metadata dicts:

     x = {}                       Assign x RNew
     x = y.copy() / dict(y)       Assign x (RCopyVar y)
     x = itg.metadata().copy()    Assign x (RCopyInput i)
     x = y                        Assign x (RAlias y)
     x = itg.metadata()           Assign x (RInput i)       (i-th dict that existed before the call)
     x.update(y)                  UpdateVar x y
     x.update(itg.metadata())     UpdateInput x i
     x[k] = v / x.pop(k) / ...    SetItem x k v
     Integral(..., x, ...) etc.   Use x                     (x escapes into a new object; no write)

   The heap maps addresses to dict contents; every dict that exists when the function is entered
   (the metadata dicts of the INPUT integrals / measures, the caller's dicts) has an address < n0.
   [safe] is a must-be-fresh analysis: every written variable is, at that point, bound to a dict
   allocated by this very function.  Frame theorem, for ALL IR programs, all heaps, all environments,
   all numbers of loop iterations: a safe program leaves every pre-existing dict unchanged.
   The T1 translator (py/C27_t1.py) emits the IR of the real functions into coq/Gen/C27_ir.v, where
   [safe prog = true] is checked by computation and the frame theorem is instantiated. *)

From Coq Require Import List Bool Arith.
Import ListNotations.

Definition var := nat.
Definition addr := nat.

Inductive rhs := RNew | RCopyVar (y : var) | RCopyInput (i : nat) | RAlias (y : var) | RInput (i : nat).

Inductive stmt :=
 | Assign (x : var) (r : rhs)
 | UpdateVar (x y : var)
 | UpdateInput (x : var) (i : nat)
 | SetItem (x : var) (k v : nat)
 | Use (x : var).

Definition dict := list (nat * nat).

Record st := { env : var -> addr; sto : addr -> dict; nxt : addr }.

Definition upd {A} (f : nat -> A) (k : nat) (v : A) : nat -> A := fun j => if j =? k then v else f j.

Section Exec.
  Variable inputs : nat -> addr.      (* the dict objects reachable from the inputs *)

  Definition alloc (s : st) (x : var) (d : dict) : st :=
    {| env := upd (env s) x (nxt s); sto := upd (sto s) (nxt s) d; nxt := S (nxt s) |}.

  Definition write (s : st) (a : addr) (d : dict) : st :=
    {| env := env s; sto := upd (sto s) a d; nxt := nxt s |}.

  Definition exec1 (s : st) (c : stmt) : st :=
    match c with
    | Assign x RNew => alloc s x []
    | Assign x (RCopyVar y) => alloc s x (sto s (env s y))
    | Assign x (RCopyInput i) => alloc s x (sto s (inputs i))
    | Assign x (RAlias y) => {| env := upd (env s) x (env s y); sto := sto s; nxt := nxt s |}
    | Assign x (RInput i) => {| env := upd (env s) x (inputs i); sto := sto s; nxt := nxt s |}
    | UpdateVar x y => write s (env s x) (sto s (env s y) ++ sto s (env s x))
    | UpdateInput x i => write s (env s x) (sto s (inputs i) ++ sto s (env s x))
    | SetItem x k v => write s (env s x) ((k, v) :: sto s (env s x))
    | Use _ => s
    end.

  Definition exec (s : st) (p : list stmt) : st := fold_left exec1 p s.

  Fixpoint iter (n : nat) (p : list stmt) (s : st) : st :=
    match n with 0 => s | S m => iter m p (exec s p) end.

  Definition mem (x : var) (l : list var) : bool := existsb (Nat.eqb x) l.
  Definition remove (x : var) (l : list var) : list var := filter (fun y => negb (y =? x)) l.

  (* None = a write through a variable that is not known to be fresh *)
  Definition step (fresh : list var) (c : stmt) : option (list var) :=
    match c with
    | Assign x RNew | Assign x (RCopyVar _) | Assign x (RCopyInput _) => Some (x :: fresh)
    | Assign x (RAlias y) => Some (if mem y fresh then x :: fresh else remove x fresh)
    | Assign x (RInput _) => Some (remove x fresh)
    | UpdateVar x _ | UpdateInput x _ | SetItem x _ _ => if mem x fresh then Some fresh else None
    | Use _ => Some fresh
    end.

  Fixpoint analyse (fresh : list var) (p : list stmt) : option (list var) :=
    match p with
    | [] => Some fresh
    | c :: p' => match step fresh c with None => None | Some f => analyse f p' end
    end.

  Definition safe (p : list stmt) : bool := match analyse [] p with Some _ => true | None => false end.

  Variable n0 : addr.

  Definition Inv (fresh : list var) (s : st) : Prop :=
    n0 <= nxt s /\ forall x, mem x fresh = true -> n0 <= env s x /\ env s x < nxt s.

  Definition frame (s s' : st) : Prop := forall a, a < n0 -> sto s' a = sto s a.

  Lemma mem_cons x y l : mem x (y :: l) = (x =? y) || mem x l.
  Proof. reflexivity. Qed.

  Lemma mem_remove x y l : mem x (remove y l) = true -> mem x l = true /\ x <> y.
  Proof.
    unfold mem, remove. intro E. apply existsb_exists in E as (z & I & E). apply Nat.eqb_eq in E. subst z.
    apply filter_In in I as [I N]. split.
    - apply existsb_exists. exists x. split; auto. apply Nat.eqb_refl.
    - intro; subst. rewrite Nat.eqb_refl in N. discriminate.
  Qed.

  Lemma frame_refl s : frame s s.
  Proof. intros a L. reflexivity. Qed.

  Lemma frame_trans s1 s2 s3 : frame s1 s2 -> frame s2 s3 -> frame s1 s3.
  Proof. intros F1 F2 a L. rewrite (F2 a L). apply F1, L. Qed.

  (* a store at an address that is not below n0 *)
  Lemma frame_sto s e a d nx : n0 <= a -> frame s {| env := e; sto := upd (sto s) a d; nxt := nx |}.
  Proof.
    intros G b L. cbn [sto]. unfold upd. destruct (Nat.eqb_spec b a) as [->|_]; [|reflexivity].
    destruct (Nat.lt_irrefl _ (Nat.lt_le_trans _ _ _ L G)).
  Qed.

  Lemma inv_alloc fresh s x d : Inv fresh s -> Inv (x :: fresh) (alloc s x d) /\ frame s (alloc s x d).
  Proof.
    intros [N F]. split; [split|apply frame_sto, N]; cbn [alloc env nxt].
    - apply Nat.le_le_succ_r, N.
    - intros y M. rewrite mem_cons in M. unfold upd. destruct (y =? x).
      + split; [exact N | apply Nat.lt_succ_diag_r].
      + destruct (F y M) as [L U]. split; [exact L | apply Nat.lt_lt_succ_r, U].
  Qed.

  Lemma inv_write fresh s x d : Inv fresh s -> mem x fresh = true ->
    Inv fresh (write s (env s x) d) /\ frame s (write s (env s x) d).
  Proof. intros I M. split; [exact I | apply frame_sto, (proj2 I x M)]. Qed.

  (* after x is rebound, the variables that stay fresh are other variables *)
  Lemma inv_unbind fresh s x a : Inv fresh s ->
    Inv (remove x fresh) {| env := upd (env s) x a; sto := sto s; nxt := nxt s |}.
  Proof.
    intros [N F]. split; [exact N|]. intros z M. apply mem_remove in M as [M Ne].
    cbn [env nxt]. unfold upd. rewrite (proj2 (Nat.eqb_neq z x) Ne). apply F, M.
  Qed.

  Lemma step_sound fresh c fresh' s : step fresh c = Some fresh' -> Inv fresh s ->
    Inv fresh' (exec1 s c) /\ frame s (exec1 s c).
  Proof.
    intros St I. destruct c as [x r|x y|x i|x k v|x]; cbn [step exec1] in *.
    (* the three writes *)
    2-4: destruct (mem x fresh) eqn:M; [injection St as <-|discriminate]; apply inv_write; assumption.
    - destruct r; injection St as <-; try (apply inv_alloc, I); (split; [|exact (frame_refl s)]).
      + destruct (mem y fresh) eqn:My; [|apply inv_unbind, I]. destruct I as [N F]. split; [exact N|].
        intros z M. rewrite mem_cons in M. cbn [env nxt]. unfold upd.
        destruct (z =? x); [apply F, My | apply F, M].
      + apply inv_unbind, I.
    - injection St as <-. split; [exact I | apply frame_refl].
  Qed.

  Lemma analyse_sound : forall p fresh fresh' s, analyse fresh p = Some fresh' -> Inv fresh s ->
    Inv fresh' (exec s p) /\ frame s (exec s p).
  Proof.
    induction p as [|c p IH]; cbn [analyse]; intros fresh fresh' s A I.
    - injection A as <-. split; [exact I | apply frame_refl].
    - destruct (step fresh c) as [f|] eqn:St; [|discriminate].
      destruct (step_sound _ _ _ _ St I) as [I1 F1]. destruct (IH _ _ _ A I1) as [I2 F2].
      split; [exact I2 | exact (frame_trans _ _ _ F1 F2)].
  Qed.

  (* MAIN THEOREM: all programs, all heaps, all environments, any number of iterations *)
  Theorem C27_frame : forall p, safe p = true ->
    forall n s, n0 <= nxt s -> frame s (iter n p s).
  Proof.
    intros p Sf. unfold safe in Sf. destruct (analyse [] p) as [f|] eqn:A; [|discriminate].
    induction n as [|n IH]; cbn [iter]; intros s N; [apply frame_refl|].
    assert (I : Inv [] s) by (split; [exact N | discriminate]).
    destruct (analyse_sound _ _ _ _ A I) as [[N1 _] F1].
    exact (frame_trans _ _ _ F1 (IH _ N1)).
  Qed.

  (* in particular the dicts of the inputs *)
  Corollary C27_inputs_unchanged : forall p, safe p = true ->
    (forall i, inputs i < n0) ->
    forall n s, n0 <= nxt s -> forall i, sto (iter n p s) (inputs i) = sto s (inputs i).
  Proof. intros p Sf Hi n s N i. apply (C27_frame p Sf n s N). apply Hi. Qed.
End Exec.

(* the analysis is not vacuous: the two mutations the property is about are rejected, and they do
   change an input dict *)
Example unsafe_alias_write : safe [Assign 0 (RInput 0); SetItem 0 7 1] = false.
Proof. reflexivity. Qed.

Theorem C27_alias_write_mutates :
  exists (inputs : nat -> addr) (s : st),
    sto (exec inputs s [Assign 0 (RInput 0); SetItem 0 7 1]) (inputs 0) <> sto s (inputs 0).
Proof.
  exists (fun _ => 0), {| env := fun _ => 0; sto := fun _ => []; nxt := 1 |}. simpl. discriminate.
Qed.

Example safe_copy_write :
  safe [Assign 0 RNew; UpdateInput 0 0; SetItem 0 7 1; Use 0] = true.
Proof. reflexivity. Qed.

Print Assumptions C27_frame.
Print Assumptions C27_inputs_unchanged.
Print Assumptions C27_alias_write_mutates.

(* The constructor protocol.  Python evaluates C(args) as
       obj = C.__new__(C, args);  if isinstance(obj, C): obj.__init__(args)
   Many UFL classes simplify in __new__ by returning an EXISTING object.  If that object is an instance
   of C, __init__ runs again on it.  A GUARDED __init__ (first statement: return if already initialised;
   the flag is False after allocation and set at the end of __init__) leaves it alone; an unguarded one
   overwrites its operands with the new arguments (typically the object itself: a cycle). *)
Section Protocol.
  Record pobj := { pcls : nat; pinit : bool; pops : list nat }.
  Definition pheap := list pobj.

  Inductive newres := NFresh | NExisting (a : nat).

  Fixpoint pset (h : pheap) (a : nat) (o : pobj) : pheap :=
    match h, a with
    | [], _ => []
    | _ :: t, 0 => o :: t
    | x :: t, S a' => x :: pset t a' o
    end.

  Definition run_init (guarded : bool) (h : pheap) (a : nat) (ops : list nat) : pheap :=
    match nth_error h a with
    | None => h
    | Some o => if guarded && pinit o then h
                else pset h a {| pcls := pcls o; pinit := true; pops := ops |}
    end.

  Definition construct (guarded : bool) (C : nat) (r : newres) (ops : list nat) (h : pheap) : pheap :=
    match r with
    | NFresh => h ++ [{| pcls := C; pinit := true; pops := ops |}]
    | NExisting a =>
        match nth_error h a with
        | Some o => if pcls o =? C then run_init guarded h a ops else h
        | None => h
        end
    end.

  Definition all_init (h : pheap) : Prop := forall a o, nth_error h a = Some o -> pinit o = true.

  (* every object that exists before the call is exactly as it was, for every class, every result of
     __new__, every argument list, every heap of initialised objects *)
  Theorem C27_guarded_ctor_pure : forall C r ops h, all_init h ->
    forall a o, nth_error h a = Some o -> nth_error (construct true C r ops h) a = Some o.
  Proof.
    intros C r ops h I a o E. destruct r as [|b]; simpl.
    - rewrite nth_error_app1; auto. apply nth_error_Some. congruence.
    - destruct (nth_error h b) as [ob|] eqn:Eb; auto.
      destruct (pcls ob =? C); auto. unfold run_init. rewrite Eb. simpl.
      rewrite (I b ob Eb). exact E.
  Qed.

  (* without the guard the returned instance is overwritten *)
  Theorem C27_unguarded_ctor_mutates :
    exists C ops h a o, all_init h /\ nth_error h a = Some o /\
      nth_error (construct false C (NExisting a) ops h) a <> Some o.
  Proof.
    exists 7, [0], [{| pcls := 7; pinit := true; pops := [5] |}], 0, {| pcls := 7; pinit := true; pops := [5] |}.
    split; [|split; [reflexivity | simpl; discriminate]].
    intros a o E. destruct a as [|[|a]]; simpl in E; inversion E; reflexivity.
  Qed.

  (* what the T1 table of a class says: __new__ may return an existing object / __init__ is guarded /
     __init__ writes operands or attributes.  Of the three ways to be [protocol_safe] only the guard is
     the subject of a theorem (C27_guarded_ctor_pure); the other two are safe for want of anything to run
     or to write, which [construct] does not model. *)
  Record centry := { returns_existing : bool; guarded_init : bool; init_writes : bool }.
  Definition protocol_safe (e : centry) : bool :=
    negb (returns_existing e) || guarded_init e || negb (init_writes e).
End Protocol.

Print Assumptions C27_guarded_ctor_pure.
Print Assumptions C27_unguarded_ctor_mutates.
