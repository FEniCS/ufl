(** * C12 - signatures do not depend on incidental numbering

    Model (tie T3 + history harness, py/props/C12.py): the comparator [cmpg] of C29_model.v, the operand
    sorting of the commutative constructors ([build] of a construction script), a monotone renaming
    [rename phi] of the five global counters (Index, Coefficient, Label, Constant counts and Mesh ids), and
    the canonical renumbering [canon] that the signature applies (indices by first occurrence, counted
    terminals and meshes by the rank of their count).

    Theorems.  For every renaming that is strictly monotone on each counter class:
    - [C12_cmp_rename_partial]: cmp (rename a) (rename b) = cmp a b for ALL trees whose repr-compared
      terminals contain no counter (the numeric comparators are invariant);
    - [C12_cmp_rename_refuted], [C12_cmp_rename_refuted_mesh]: false for a terminal compared by a repr that
      embeds a counter in decimal ("10" < "9"), as a Constant and a quantity on a Mesh are in the pinned
      tree; /repo compares them by count and by mesh id, and they are [TCoef] and [TGeo] leaves
      ([C12_cmp_rename_geo_repaired]);
    - [C12_canon_rename]: canon (rename t) = canon t for ALL trees;
    - [C12_sig_invariant_partial]: hence sig (build (rename script)) = sig (build script) on the
      counter-free class, for every hash function; [C12_sig_invariant_refuted]: not in general. *)

From Coq Require Import String Ascii NArith Bool PeanoNat List.
From UFLV Require Import Props.C29_model.
Import ListNotations.
Open Scope N_scope.

Record renaming := { r_idx : N -> N; r_coef : N -> N; r_label : N -> N; r_const : N -> N; r_mesh : N -> N }.

Definition mono (f : N -> N) : Prop := forall x y, x < y -> f x < f y.
Definition mono_all (phi : renaming) : Prop :=
  mono (r_idx phi) /\ mono (r_coef phi) /\ mono (r_label phi) /\ mono (r_const phi) /\ mono (r_mesh phi).

Lemma mono_compare f : mono f -> forall x y, (f x ?= f y) = (x ?= y).
Proof.
  intros H x y. destruct (N.compare_spec x y) as [E | E | E].
  - subst. apply N.compare_refl.
  - apply N.compare_lt_iff, H, E.
  - apply N.compare_gt_iff, H, E.
Qed.

Lemma mono_inj f : mono f -> forall x y, f x = f y -> x = y.
Proof.
  intros H x y E. apply N.compare_eq_iff. rewrite <- (mono_compare f H). apply N.compare_eq_iff, E.
Qed.

Definition rename_idx (phi : renaming) (i : idx) : idx :=
  match i with Fixed v => Fixed v | Free c => Free (r_idx phi c) end.
Definition rename_piece (phi : renaming) (p : piece) : piece :=
  match p with
  | PLit s => PLit s
  | PCnt CConstant n => PCnt CConstant (r_const phi n)
  | PCnt CMesh n => PCnt CMesh (r_mesh phi n)
  end.
Definition rename_tdata (phi : renaming) (d : tdata) : tdata :=
  match d with
  | TMulti l => TMulti (map (rename_idx phi) l)
  | TArg n p fs => TArg n p fs
  | TCoef c fs => TCoef (r_coef phi c) fs
  | TLabel c => TLabel (r_label phi c)
  | TRepr ps => TRepr (map (rename_piece phi) ps)
  | TGeo k m => TGeo k (r_mesh phi m)
  end.
Fixpoint rename (phi : renaming) (t : tree) : tree :=
  match t with
  | Leaf tc d => Leaf tc (rename_tdata phi d)
  | Node tc ops => Node tc (map (rename phi) ops)
  end.

(** the class on which the comparator is purely numeric: no counter inside a repr-compared terminal *)
Definition lit_piece (p : piece) : bool := match p with PLit _ => true | PCnt _ _ => false end.
Definition cfree_data (d : tdata) : bool := match d with TRepr ps => forallb lit_piece ps | _ => true end.
Fixpoint cfree (t : tree) : bool :=
  match t with Leaf _ d => cfree_data d | Node _ ops => forallb cfree ops end.

Lemma rename_lit_pieces phi ps : forallb lit_piece ps = true -> map (rename_piece phi) ps = ps.
Proof.
  induction ps as [|p ps IH]; simpl; intro H; [reflexivity|].
  apply andb_prop in H as [H1 H2]. rewrite (IH H2).
  destruct p; [reflexivity | discriminate].
Qed.

Lemma cmp_idx_rename phi i j : cmp_idx (rename_idx phi i) (rename_idx phi j) = cmp_idx i j.
Proof. destruct i, j; reflexivity. Qed.

Section MapCmp.
  Context {A : Type} (c : A -> A -> comparison) (f : A -> A).
  Lemma zipc_map l1 : Forall (fun x => forall y, c (f x) (f y) = c x y) l1 ->
    forall l2, zipc c (map f l1) (map f l2) = zipc c l1 l2.
  Proof.
    induction 1 as [|x l1 Hx _ IH]; destruct l2 as [|y l2]; simpl; try reflexivity.
    rewrite Hx, IH. reflexivity.
  Qed.
  Lemma lex_map l1 : Forall (fun x => forall y, c (f x) (f y) = c x y) l1 ->
    forall l2, lex c (map f l1) (map f l2) = lex c l1 l2.
  Proof. intros H l2. rewrite !lex_zipc, (zipc_map l1 H), !map_length. reflexivity. Qed.
  Lemma rzip_map l1 : Forall (fun x => forall y, c (f x) (f y) = c x y) l1 ->
    forall l2, rzip c (map f l1) (map f l2) = rzip c l1 l2.
  Proof.
    induction 1 as [|x l1 Hx _ IH]; destruct l2 as [|y l2]; simpl; try reflexivity.
    rewrite Hx, IH. reflexivity.
  Qed.
End MapCmp.

Lemma Forall_all {A} (P : A -> Prop) (l : list A) : (forall x, P x) -> Forall P l.
Proof. intro H. induction l; constructor; auto. Qed.

Lemma kind_rename phi d : kind (rename_tdata phi d) = kind d.
Proof. destruct d; reflexivity. Qed.

Lemma cmp_tdata_rename s phi d e :
  mono (r_coef phi) -> mono (r_mesh phi) -> cfree_data d = true -> cfree_data e = true ->
  cmp_tdata s (rename_tdata phi d) (rename_tdata phi e) = cmp_tdata s d e.
Proof.
  intros Hm Hg Hd He. destruct d, e; simpl in *; try reflexivity.
  - destruct s; [apply lex_map | apply zipc_map]; apply Forall_all; intros; apply cmp_idx_rename.
  - apply mono_compare, Hm.
  - rewrite (rename_lit_pieces phi ps Hd), (rename_lit_pieces phi ps0 He). reflexivity.
  - rewrite (mono_compare _ Hg). reflexivity.
Qed.

Theorem C12_cmp_rename_partial : forall s phi, mono (r_coef phi) -> mono (r_mesh phi) ->
  forall a b, cfree a = true -> cfree b = true ->
  cmpg s (rename phi a) (rename phi b) = cmpg s a b.
Proof.
  intros s phi Hm Hg a. induction a as [ta da | ta oa IH] using tree_ind'; intros [tb db | tb ob] Ha Hb;
    simpl in *; try reflexivity.
  - rewrite cmp_tdata_rename by assumption. reflexivity.
  - rewrite !map_length. f_equal. f_equal.
    revert ob Ha Hb. induction IH as [|x l1 Hx _ IHl]; destruct ob as [|y l2]; simpl; try reflexivity.
    intros [Ha1 Ha2]%andb_prop [Hb1 Hb2]%andb_prop. rewrite (Hx y Ha1 Hb1), (IHl l2 Ha2 Hb2). reflexivity.
Qed.

(** refuted for terminals ordered by a repr that embeds a counter: Constants 1, 2 renamed to 9, 10 *)
Definition shift_const (k : N) : renaming :=
  {| r_idx := fun n => n; r_coef := fun n => n; r_label := fun n => n;
     r_const := fun n => n + k; r_mesh := fun n => n |}.
Definition shift_mesh (k : N) : renaming :=
  {| r_idx := fun n => n; r_coef := fun n => n; r_label := fun n => n;
     r_const := fun n => n; r_mesh := fun n => n + k |}.

Lemma mono_id : mono (fun n => n). Proof. intros x y H; exact H. Qed.
Lemma mono_add k : mono (fun n => n + k). Proof. intros x y H. apply N.add_lt_mono_r, H. Qed.
Lemma shift_const_mono k : mono_all (shift_const k).
Proof. repeat split; simpl; try apply mono_id; apply mono_add. Qed.
Lemma shift_mesh_mono k : mono_all (shift_mesh k).
Proof. repeat split; simpl; try apply mono_id; apply mono_add. Qed.

Definition constant_leaf (n : N) : tree :=
  Leaf 0 (TRepr [PLit "Constant(Mesh(E, "; PCnt CMesh 0; PLit "), (), "; PCnt CConstant n; PLit ")"]).
Definition coordinate_leaf (m : N) : tree :=
  Leaf 0 (TRepr [PLit "SpatialCoordinate(Mesh(E, "; PCnt CMesh m; PLit "))"]).

Theorem C12_cmp_rename_refuted :
  mono_all (shift_const 8) /\
  cmp (constant_leaf 1) (constant_leaf 2) = Lt /\
  cmp (rename (shift_const 8) (constant_leaf 1)) (rename (shift_const 8) (constant_leaf 2)) = Gt.
Proof. split; [apply shift_const_mono | split; vm_compute; reflexivity]. Qed.

Theorem C12_cmp_rename_refuted_mesh :
  mono_all (shift_mesh 9) /\
  cmp (coordinate_leaf 0) (coordinate_leaf 1) = Lt /\
  cmp (rename (shift_mesh 9) (coordinate_leaf 0)) (rename (shift_mesh 9) (coordinate_leaf 1)) = Gt.
Proof. split; [apply shift_mesh_mono | split; vm_compute; reflexivity]. Qed.

(** ** construction scripts: operand order is decided when the commutative node is built *)

Inductive script :=
| SLeaf (tc : N) (d : tdata)
| SComm (tc : N) (a b : script)            (* Sum / Product of two non-literal operands: sorted *)
| SOp (tc : N) (args : list script).       (* every other operator: operands kept as given *)

Fixpoint build (s : bool) (sc : script) : tree :=
  match sc with
  | SLeaf tc d => Leaf tc d
  | SComm tc a b => let (x, y) := sort2g s (build s a) (build s b) in Node tc [x; y]
  | SOp tc args => Node tc (map (build s) args)
  end.

Fixpoint rename_script (phi : renaming) (sc : script) : script :=
  match sc with
  | SLeaf tc d => SLeaf tc (rename_tdata phi d)
  | SComm tc a b => SComm tc (rename_script phi a) (rename_script phi b)
  | SOp tc args => SOp tc (map (rename_script phi) args)
  end.

Fixpoint scfree (sc : script) : bool :=
  match sc with
  | SLeaf _ d => cfree_data d
  | SComm _ a b => scfree a && scfree b
  | SOp _ args => forallb scfree args
  end.

Lemma script_ind' (P : script -> Prop) :
  (forall tc d, P (SLeaf tc d)) ->
  (forall tc a b, P a -> P b -> P (SComm tc a b)) ->
  (forall tc args, Forall P args -> P (SOp tc args)) ->
  forall sc, P sc.
Proof.
  intros HL HC HO. fix IH 1. intros [tc d | tc a b | tc args].
  - apply HL.
  - apply HC; apply IH.
  - apply HO. induction args as [|x args IHa]; constructor; [apply IH | exact IHa].
Qed.

Lemma build_cfree s : forall sc, scfree sc = true -> cfree (build s sc) = true.
Proof.
  induction sc as [tc d | tc a b IHa IHb | tc args IH] using script_ind'; simpl; intro H.
  - exact H.
  - apply andb_prop in H as [Ha Hb]. unfold sort2g.
    destruct (is_lt (cmpg s (build s b) (build s a))); simpl; rewrite (IHa Ha), (IHb Hb); reflexivity.
  - induction IH as [|x l Hx _ IHl]; simpl in *; [reflexivity|].
    apply andb_prop in H as [H1 H2]. rewrite (Hx H1), (IHl H2). reflexivity.
Qed.

Theorem C12_build_rename : forall s phi, mono (r_coef phi) -> mono (r_mesh phi) ->
  forall sc, scfree sc = true -> build s (rename_script phi sc) = rename phi (build s sc).
Proof.
  intros s phi Hm Hg. induction sc as [tc d | tc a b IHa IHb | tc args IH] using script_ind'; simpl; intro H.
  - reflexivity.
  - apply andb_prop in H as [Ha Hb]. rewrite (IHa Ha), (IHb Hb). unfold sort2g.
    rewrite (C12_cmp_rename_partial s phi Hm Hg) by (apply build_cfree; assumption).
    destruct (is_lt (cmpg s (build s b) (build s a))); reflexivity.
  - f_equal. induction IH as [|x l Hx _ IHl]; simpl in *; [reflexivity|].
    apply andb_prop in H as [H1 H2]. rewrite (Hx H1), (IHl H2). reflexivity.
Qed.

(** ** canonical renumbering (what the signature sees) *)

(* index of the first occurrence in the list of ALL occurrences: [5;5;7] is numbered 0, 0, 2 where ufl
   numbers 0, 0, 1.  The two numberings are order-isomorphic, and only invariance under renamings is
   claimed of [canon]. *)
Fixpoint pos (x : N) (l : list N) : N :=
  match l with [] => 0 | y :: l' => if x =? y then 0 else 1 + pos x l' end.

Definition rank (x : N) (l : list N) : N :=
  N.of_nat (length (nodup N.eq_dec (filter (fun y => y <? x) l))).

Lemma pos_map f : (forall x y, f x = f y -> x = y) -> forall x l, pos (f x) (map f l) = pos x l.
Proof.
  intros Hinj x l. induction l as [|y l IH]; simpl; [reflexivity|].
  destruct (N.eqb_spec x y) as [E | E].
  - subst. rewrite N.eqb_refl. reflexivity.
  - destruct (N.eqb_spec (f x) (f y)) as [E' | E']; [elim E; apply Hinj, E' | rewrite IH; reflexivity].
Qed.

Lemma nodup_map_inj f : (forall x y, f x = f y -> x = y) ->
  forall l, nodup N.eq_dec (map f l) = map f (nodup N.eq_dec l).
Proof.
  intros Hinj l. induction l as [|a l IH]; simpl; [reflexivity|].
  destruct (in_dec N.eq_dec a l) as [Hi | Hi]; destruct (in_dec N.eq_dec (f a) (map f l)) as [Hj | Hj].
  - exact IH.
  - elim Hj. apply in_map, Hi.
  - elim Hi. apply in_map_iff in Hj. destruct Hj as [x [E Hx]]. apply Hinj in E. subst. exact Hx.
  - simpl. rewrite IH. reflexivity.
Qed.

Lemma rank_map f : mono f -> forall x l, rank (f x) (map f l) = rank x l.
Proof.
  intros Hm x l. unfold rank. f_equal.
  assert (E : filter (fun y => y <? f x) (map f l) = map f (filter (fun y => y <? x) l)).
  { induction l as [|y l IH]; simpl; [reflexivity|].
    assert (Hlt : (f y <? f x) = (y <? x)) by (unfold N.ltb; rewrite (mono_compare f Hm); reflexivity).
    rewrite Hlt. destruct (y <? x); simpl; rewrite IH; reflexivity. }
  rewrite E, (nodup_map_inj f (mono_inj f Hm)), map_length. reflexivity.
Qed.

(** the counters occurring in a tree, in traversal order *)
Definition idx_counts (l : list idx) : list N :=
  flat_map (fun i => match i with Free c => [c] | Fixed _ => [] end) l.
Definition piece_counts (k : cclass) (ps : list piece) : list N :=
  flat_map (fun p => match p, k with
                     | PCnt CConstant n, CConstant => [n]
                     | PCnt CMesh n, CMesh => [n]
                     | _, _ => [] end) ps.

Inductive counter := KIdx | KCoef | KLabel | KConst | KMesh.

Definition data_counts (k : counter) (d : tdata) : list N :=
  match k, d with
  | KIdx, TMulti l => idx_counts l
  | KCoef, TCoef c _ => [c]
  | KLabel, TLabel c => [c]
  | KConst, TRepr ps => piece_counts CConstant ps
  | KMesh, TRepr ps => piece_counts CMesh ps
  | KMesh, TGeo _ m => [m]
  | _, _ => []
  end.
Fixpoint counts (k : counter) (t : tree) : list N :=
  match t with Leaf _ d => data_counts k d | Node _ ops => flat_map (counts k) ops end.

Definition r_of (phi : renaming) (k : counter) : N -> N :=
  match k with KIdx => r_idx phi | KCoef => r_coef phi | KLabel => r_label phi
             | KConst => r_const phi | KMesh => r_mesh phi end.

Lemma flat_map_map_gen {A B C} (g : A -> list B) (g' : C -> list B) (h : A -> C) (f : B -> B) l :
  Forall (fun x => g' (h x) = map f (g x)) l -> flat_map g' (map h l) = map f (flat_map g l).
Proof.
  induction 1 as [|x l Hx _ IH]; simpl; [reflexivity|]. rewrite Hx, IH, map_app. reflexivity.
Qed.

Lemma data_counts_rename phi k d : data_counts k (rename_tdata phi d) = map (r_of phi k) (data_counts k d).
Proof.
  destruct k, d; simpl; try reflexivity; apply flat_map_map_gen, Forall_all.
  - intros [v | c]; reflexivity.
  - intros [s | [|] n]; reflexivity.
  - intros [s | [|] n]; reflexivity.
Qed.

Lemma counts_rename phi k : forall t, counts k (rename phi t) = map (r_of phi k) (counts k t).
Proof.
  induction t as [tc d | tc ops IH] using tree_ind'; simpl.
  - apply data_counts_rename.
  - apply flat_map_map_gen. exact IH.
Qed.

Record ctx := { c_idx : list N; c_coef : list N; c_label : list N; c_const : list N; c_mesh : list N }.
Definition ctx_of (t : tree) : ctx :=
  {| c_idx := counts KIdx t; c_coef := counts KCoef t; c_label := counts KLabel t;
     c_const := counts KConst t; c_mesh := counts KMesh t |}.
Definition ctx_map (phi : renaming) (c : ctx) : ctx :=
  {| c_idx := map (r_idx phi) (c_idx c); c_coef := map (r_coef phi) (c_coef c);
     c_label := map (r_label phi) (c_label c); c_const := map (r_const phi) (c_const c);
     c_mesh := map (r_mesh phi) (c_mesh c) |}.

Definition canon_idx (c : ctx) (i : idx) : idx :=
  match i with Fixed v => Fixed v | Free n => Free (pos n (c_idx c)) end.
Definition canon_piece (c : ctx) (p : piece) : piece :=
  match p with
  | PLit s => PLit s
  | PCnt CConstant n => PCnt CConstant (rank n (c_const c))
  | PCnt CMesh n => PCnt CMesh (rank n (c_mesh c))
  end.
Definition canon_tdata (c : ctx) (d : tdata) : tdata :=
  match d with
  | TMulti l => TMulti (map (canon_idx c) l)
  | TArg n p fs => TArg n p fs
  | TCoef n fs => TCoef (rank n (c_coef c)) fs
  | TLabel n => TLabel (rank n (c_label c))
  | TRepr ps => TRepr (map (canon_piece c) ps)
  | TGeo k n => TGeo k (rank n (c_mesh c))
  end.
Fixpoint canon_with (c : ctx) (t : tree) : tree :=
  match t with
  | Leaf tc d => Leaf tc (canon_tdata c d)
  | Node tc ops => Node tc (map (canon_with c) ops)
  end.
Definition canon (t : tree) : tree := canon_with (ctx_of t) t.

Lemma canon_tdata_rename phi c d : mono_all phi ->
  canon_tdata (ctx_map phi c) (rename_tdata phi d) = canon_tdata c d.
Proof.
  intros (Hi & Hc & Hl & Hk & Hm). destruct d; simpl; try reflexivity.
  - f_equal. rewrite map_map. apply map_ext. intros [v | n]; simpl; [reflexivity|].
    rewrite (pos_map _ (mono_inj _ Hi)). reflexivity.
  - rewrite (rank_map _ Hc). reflexivity.
  - rewrite (rank_map _ Hl). reflexivity.
  - f_equal. rewrite map_map. apply map_ext. intros [s | [|] n]; simpl; try reflexivity.
    + rewrite (rank_map _ Hk). reflexivity.
    + rewrite (rank_map _ Hm). reflexivity.
  - rewrite (rank_map _ Hm). reflexivity.
Qed.

Lemma canon_with_rename phi c : mono_all phi ->
  forall t, canon_with (ctx_map phi c) (rename phi t) = canon_with c t.
Proof.
  intros H. induction t as [tc d | tc ops IH] using tree_ind'; simpl.
  - rewrite canon_tdata_rename by exact H. reflexivity.
  - f_equal. rewrite map_map. apply map_ext_Forall, IH.
Qed.

Theorem C12_canon_rename : forall phi, mono_all phi -> forall t, canon (rename phi t) = canon t.
Proof.
  intros phi H t. unfold canon.
  assert (E : ctx_of (rename phi t) = ctx_map phi (ctx_of t)).
  { unfold ctx_of, ctx_map. simpl. rewrite !counts_rename. reflexivity. }
  rewrite E. apply canon_with_rename, H.
Qed.

(** ** the signature of a script: any function of the canonically renumbered built tree *)
Section Sig.
  Variable T : Type.
  Variable H : tree -> T.                  (* str() rendering of the hash data followed by SHA-512 *)
  Definition sig (s : bool) (sc : script) : T := H (canon (build s sc)).

  Theorem C12_sig_invariant_partial : forall s phi, mono_all phi ->
    forall sc, scfree sc = true -> sig s (rename_script phi sc) = sig s sc.
  Proof.
    intros s phi Hm sc Hf. unfold sig.
    rewrite (C12_build_rename s phi (proj1 (proj2 Hm)) (proj2 (proj2 (proj2 (proj2 Hm)))) sc Hf), (C12_canon_rename phi Hm).
    reflexivity.
  Qed.

  (** with an injective hash the signature of Constant 1 * Constant 2 changes when the same script is
      run with the constant counter advanced by 8 *)
  Hypothesis H_inj : forall a b, H a = H b -> a = b.
  Definition two_constants : script :=
    SComm 1 (SLeaf 0 (TRepr [PLit "Constant(Mesh(E, "; PCnt CMesh 0; PLit "), (), "; PCnt CConstant 1; PLit ")"]))
            (SLeaf 0 (TRepr [PLit "Constant(Mesh(E, "; PCnt CMesh 0; PLit "), (), "; PCnt CConstant 2; PLit ")"])).

  Theorem C12_sig_invariant_refuted :
    mono_all (shift_const 8) /\ sig false (rename_script (shift_const 8) two_constants) <> sig false two_constants.
  Proof.
    split; [apply shift_const_mono|]. unfold sig. intro E. apply H_inj in E. revert E.
    vm_compute. discriminate.
  Qed.
End Sig.

(** with fixes/C12-geometry-cmp-by-domain-id.diff a geometric quantity is a [TGeo] leaf: it belongs to the
    counter-free class ([cfree_data (TGeo _ _) = true]), so the invariance theorems above apply unguarded
    to forms whose only counted terminals are coefficients, constants ordered by count (those of /repo,
    which py/C29_lib.py maps to [TCoef] leaves), labels, indices and geometric quantities; in particular the mesh-id refutation no longer applies to them: *)
Definition coordinate_leaf_repaired (m : N) : tree := Leaf 0 (TGeo "E" m).
Theorem C12_cmp_rename_geo_repaired : forall phi, mono (r_coef phi) -> mono (r_mesh phi) -> forall m1 m2,
  cmp (rename phi (coordinate_leaf_repaired m1)) (rename phi (coordinate_leaf_repaired m2)) =
  cmp (coordinate_leaf_repaired m1) (coordinate_leaf_repaired m2).
Proof. intros phi Hc Hg m1 m2. apply C12_cmp_rename_partial; try assumption; reflexivity. Qed.

(** executable helpers for the generated correspondence (coq/Gen/C12_*.v) *)
Definition shift5 (di dc dl dk dm : N) : renaming :=
  {| r_idx := fun n => n + di; r_coef := fun n => n + dc; r_label := fun n => n + dl;
     r_const := fun n => n + dk; r_mesh := fun n => n + dm |}.
Lemma shift5_mono di dc dl dk dm : mono_all (shift5 di dc dl dk dm).
Proof. repeat split; simpl; apply mono_add. Qed.

Print Assumptions C12_cmp_rename_partial.
Print Assumptions C12_cmp_rename_geo_repaired.
Print Assumptions C12_cmp_rename_refuted.
Print Assumptions C12_cmp_rename_refuted_mesh.
Print Assumptions C12_build_rename.
Print Assumptions C12_canon_rename.
Print Assumptions C12_sig_invariant_partial.
Print Assumptions C12_sig_invariant_refuted.
