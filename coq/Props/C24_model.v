(* C24 - Point evaluation computes the mathematical value.

   [py_eval] is a hand-written model of the `evaluate` methods of /repo/ufl (algebra.py, tensors.py,
   indexsum.py, indexed.py, conditional.py, mathfunctions.py, constantvalue.py, variable.py,
   restriction.py, differentiation.py, geometry.py, core/terminal.py, core/multiindex.py) as one
   interpreter over the frozen [expr] type.  It follows the code, not the intention:

     * the [component] argument is passed on exactly as each method passes it (Product evaluates its
       operands at (), Division/Power/math functions/conditions pass the incoming component on,
       Indexed replaces it, ListTensor strips the first entry after a length check, Grad strips the
       last entry and appends it to the [derivatives] tuple, ...);
     * [index_values] (a StackDict) is an association list: push = cons, lookup = first match, pop = tail;
     * methods without a [derivatives] parameter fail when derivatives are passed (TypeError);
     * [None] stands for "raises an exception or returns something that is not a number";
     * two methods are modelled in both variants, selected by [cfix] / [efix] (see there): in the pinned
       tree Conditional.evaluate passes the VALUE component to its (scalar) condition and
       PermutationSymbol.evaluate returns a UFL object (IntValue/Zero), not a number; in /repo the
       condition is evaluated at () and a number is returned.

   Python's numbers (int / Fraction / float / complex) are abstracted by the carrier of an arbitrary
   UFL algebra; the partial Python primitives (`/`, `**`, math.*, scipy bessel) are Section variables
   with the hypothesis that they return the algebra's value when they return.

   Main theorem [C24_eval_sound]: for ALL well-formed expressions of the evaluable fragment, all
   mappings consistent with the environment, all components, index valuations and derivative tuples,
   in every UFL algebra:  py_eval e = Some v  ->  v = D_ds (den e c).                                  *)
Require Import UFLV.Core.Facts.
Require Import UFLV.Props.C21_ind.
Require Import Lia.

Definition KIND_SC : nat := 10.     (* ufl2coq.KIND_OF_GEOMETRY["SpatialCoordinate"] *)

Definition obind {X Y} (o : option X) (f : X -> option Y) : option Y :=
  match o with Some x => f x | None => None end.
Definition obind2 {X Y Z} (a : option X) (b : option Y) (f : X -> Y -> option Z) : option Z :=
  match a, b with Some x, Some y => f x y | _, _ => None end.
(* a method without [derivatives] parameter called with derivatives: TypeError *)
Definition nod {X} (ds : list nat) (r : option X) : option X :=
  match ds with [] => r | _ => None end.

Fixpoint leqb (a b : list nat) : bool :=
  match a, b with
  | [], [] => true
  | x :: a', y :: b' => Nat.eqb x y && leqb a' b'
  | _, _ => false
  end.
Lemma leqb_eq a b : leqb a b = true -> a = b.
Proof.
  revert b; induction a as [|x a IH]; destruct b as [|y b]; cbn; try discriminate; auto.
  intros H. apply andb_prop in H. destruct H as [H1 H2]. apply Nat.eqb_eq in H1. f_equal; auto.
Qed.
Definition is_nil {X} (l : list X) : bool := match l with [] => true | _ => false end.
Lemma is_nil_eq {X} (l : list X) : is_nil l = true -> l = [].
Proof. destruct l; cbn; congruence. Qed.

(* StackDict (ufl/utils/stacks.py): a dict plus an undo log.  Modelled faithfully here; the lemma  *)
(* below justifies the association-list view used by [py_eval].                                    *)
Section StackDict.
Definition dict := list (nat * nat).                      (* keys unique: maintained by dset/ddel *)
Fixpoint dget (d : dict) (k : nat) : option nat :=
  match d with [] => None | (k', v) :: t => if Nat.eqb k k' then Some v else dget t k end.
Fixpoint ddel (d : dict) (k : nat) : dict :=
  match d with [] => [] | (k', v) :: t => if Nat.eqb k k' then ddel t k else (k', v) :: ddel t k end.
Definition dset (d : dict) (k v : nat) : dict := (k, v) :: ddel d k.
Definition sdict := (dict * list (nat * option nat))%type.
Definition sd_push (s : sdict) (k v : nat) : sdict := (dset (fst s) k v, (k, dget (fst s) k) :: snd s).
Definition sd_pop (s : sdict) : sdict :=
  match snd s with
  | [] => s
  | (k, None) :: l => (ddel (fst s) k, l)
  | (k, Some v) :: l => (dset (fst s) k v, l)
  end.
Lemma dget_ddel d k j : dget (ddel d k) j = if Nat.eqb j k then None else dget d j.
Proof.
  induction d as [|[k' v] t IH]; cbn.
  - destruct (Nat.eqb j k); reflexivity.
  - destruct (Nat.eqb k k') eqn:E.
    + rewrite IH. destruct (Nat.eqb j k) eqn:E2; [reflexivity|].
      apply Nat.eqb_eq in E. subst k'. rewrite E2. reflexivity.
    + cbn. rewrite IH. destruct (Nat.eqb j k') eqn:E3; [|reflexivity].
      apply Nat.eqb_eq in E3. subst k'. rewrite Nat.eqb_sym, E. reflexivity.
Qed.
Lemma dget_dset d k v j : dget (dset d k v) j = if Nat.eqb j k then Some v else dget d j.
Proof. unfold dset. cbn. rewrite dget_ddel. destruct (Nat.eqb j k); reflexivity. Qed.
(* push then pop restores every lookup and the log *)
Theorem C24_stackdict_push_pop s k v :
  snd (sd_pop (sd_push s k v)) = snd s /\ forall j, dget (fst (sd_pop (sd_push s k v))) j = dget (fst s) j.
Proof.
  unfold sd_pop, sd_push; cbn [fst snd]. destruct (dget (fst s) k) eqn:E; cbn [fst snd]; split; auto; intros j.
  - rewrite dget_dset. destruct (Nat.eqb j k) eqn:E2.
    + apply Nat.eqb_eq in E2. subst. auto.
    + rewrite dget_dset, E2. reflexivity.
  - rewrite dget_ddel. destruct (Nat.eqb j k) eqn:E2.
    + apply Nat.eqb_eq in E2. subst. auto.
    + rewrite dget_dset, E2. reflexivity.
Qed.
(* while pushed, lookups see the new binding first: the association-list view *)
Theorem C24_stackdict_lookup s k v j :
  dget (fst (sd_push s k v)) j = if Nat.eqb j k then Some v else dget (fst s) j.
Proof. apply dget_dset. Qed.
End StackDict.

(* index_values as used by the interpreter *)
Fixpoint iv_get (iv : list (nat * nat)) (j : nat) : option nat :=
  match iv with [] => None | (i, k) :: t => if Nat.eqb j i then Some k else iv_get t j end.
Fixpoint rho_of (iv : list (nat * nat)) : nat -> nat :=
  match iv with [] => fun _ => 0 | (i, k) :: t => upd (rho_of t) i k end.
Fixpoint push_all (iv : list (nat * nat)) (ix : list (nat * nat)) (c : list nat) : list (nat * nat) :=
  match ix, c with
  | (i, _) :: ix', k :: c' => push_all ((i, k) :: iv) ix' c'
  | _, _ => iv
  end.
Lemma iv_get_rho iv j k : iv_get iv j = Some k -> rho_of iv j = k.
Proof.
  induction iv as [|[i k'] t IH]; cbn; [discriminate|].
  destruct (Nat.eqb j i); [congruence | auto].
Qed.
Lemma rho_push_all iv ix c : rho_of (push_all iv ix c) = upds (rho_of iv) ix c.
Proof.
  revert iv c; induction ix as [|[i d] ix IH]; intros iv c; [reflexivity|].
  destruct c as [|k c]; [reflexivity|]. cbn [push_all upds]. rewrite IH. reflexivity.
Qed.
(* MultiIndex.evaluate *)
Definition idx_eval (iv : list (nat * nat)) (i : idx) : option nat :=
  match i with Fixed n => Some n | Free j => iv_get iv j end.
Fixpoint mi_eval (iv : list (nat * nat)) (mi : list idx) : option (list nat) :=
  match mi with
  | [] => Some []
  | i :: t => obind2 (idx_eval iv i) (mi_eval iv t) (fun k l => Some (k :: l))
  end.
Lemma mi_eval_spec iv mi c : mi_eval iv mi = Some c ->
  map (idxval (rho_of iv)) mi = c /\ length c = length mi.
Proof.
  revert c; induction mi as [|i t IH]; intros c; cbn [mi_eval].
  - intros E; inversion E; auto.
  - unfold obind2. destruct (idx_eval iv i) as [k|] eqn:E1; [|discriminate].
    destruct (mi_eval iv t) as [l|] eqn:E2; [|discriminate]. intros E; inversion E; subst.
    destruct (IH l eq_refl) as [I1 I2]. cbn [map length]. rewrite I1, I2. split; [|reflexivity].
    f_equal. destruct i as [n|j]; cbn in *; [congruence|]. apply iv_get_rho; auto.
Qed.

Section Model.
Variable A : ualg.
Add Field AfC24 : (kfield A).
Open Scope K_scope.

(* values that enter through the mapping: numbers and nested tuples *)
Inductive pyval := PNum (v : A) | PTup (l : list pyval).
Fixpoint pv_get (p : pyval) (c : list nat) : option pyval :=
  match c with
  | [] => Some p
  | k :: c' => match p with
               | PTup l => match nth_error l k with Some q => pv_get q c' | None => None end
               | PNum _ => None            (* number[k]: TypeError *)
               end
  end.
Definition pv_num (p : pyval) (c : list nat) : option A :=
  match pv_get p c with Some (PNum v) => Some v | _ => None end.
(* a mapping entry: a callable f(x) / f(x, derivatives), or a plain value *)
Inductive mentry := MCall (f : list nat -> pyval) | MVal (p : pyval).

Variable mapping : nat -> nat -> option mentry.     (* terminal kind, id *)
Variable xpt : list A.                               (* the point, a tuple *)
Variable ki : A.
(* Python primitives that may raise *)
Variables pdiv ppow patan2 : A -> A -> option A.
Variable pmath : mathfn -> A -> option A.
Variable pbessel : bkind -> A -> A -> option A.
Variable bval : B A -> bool.                         (* bool(a < b) etc. *)
(* which body the working tree has (decided by py/C24_ast.py from the source on every run):
   cfix = Conditional.evaluate evaluates its condition at () (fixes/C24-conditional-component.diff),
   efix = PermutationSymbol.evaluate returns a number (fixes/C24-permutation-symbol-number.diff);
   false = the defective bodies of the pinned tree *)
Variables cfix efix : bool.

(* Terminal.evaluate *)
Definition term_eval (k id : nat) (c ds : list nat) : option A :=
  match mapping k id with
  | None => None                   (* unmapped: float(self) recursion, returns a UFL object at best *)
  | Some (MCall f) => pv_num (f ds) c
  | Some (MVal p) => match ds with [] => pv_num p c | _ => Some k0 end
  end.
(* SpatialCoordinate.evaluate *)
Definition sc_eval (c ds : list nat) : option A :=
  nod ds (match c with [] => nth_error xpt 0 | i :: _ => nth_error xpt i end).

(* tmp = 0; for k in range(n): tmp += f(k) *)
Fixpoint sum_loop (n : nat) (f : nat -> option A) : option A :=
  match n with
  | O => Some k0
  | S m => obind2 (sum_loop m f) (f m) (fun s v => Some (s + v))
  end.

Fixpoint py_eval (iv : list (nat * nat)) (e : expr) (c ds : list nat) {struct e} : option A :=
  match e with
  | Zero _ _ => nod ds (Some k0)
  | IntV z => nod ds (Some (of_Z z))
  | RealV m ex => nod ds (Some (kdyad m ex))
  | CplxV rm re im ie => nod ds (Some (kdyad rm re + ki * kdyad im ie))
  | RatV p q => nod ds (Some (of_Z p / of_pos q))
  | Identity _ => nod ds (match c with
                          | [a; b] => Some (if Nat.eqb a b then k1 else k0)
                          | _ => None end)
  | PermSym _ => if efix then nod ds (Some (perm_sign c))
                 else None                             (* returns IntValue(..)/Zero(): not a number *)
  | Term k id _ => if Nat.eqb k KIND_SC then sc_eval c ds else term_eval k id c ds
  | Sum a b => nod ds (obind2 (py_eval iv a c []) (py_eval iv b c []) (fun x y => Some (k0 + x + y)))
  | Product a b => nod ds (obind2 (py_eval iv a [] []) (py_eval iv b [] []) (fun x y => Some (k1 * x * y)))
  | Division a b => nod ds (obind2 (py_eval iv a c []) (py_eval iv b c []) pdiv)
  | Power a b => nod ds (obind2 (py_eval iv a c []) (py_eval iv b c []) ppow)
  | Abs a => nod ds (obind (py_eval iv a c []) (fun x => Some (kabs x)))
  | Conj a => nod ds (obind (py_eval iv a c []) (fun x => Some (kconj x)))
  | Real a => nod ds (obind (py_eval iv a c []) (fun x => Some (kre x)))
  | Imag a => nod ds (obind (py_eval iv a c []) (fun x => Some (kim x)))
  | Indexed a mi => match mi_eval iv mi with
                    | Some c' => py_eval iv a c' ds
                    | None => None
                    end
  | IndexSum a i d => nod ds (sum_loop d (fun k => py_eval ((i, k) :: iv) a c []))
  | ComponentTensor a ix =>
      nod ds (if Nat.eqb (length ix) (length c) then py_eval (push_all iv ix c) a [] [] else None)
  | ListTensor es =>
      if Nat.eqb (length c) (length (shape (ListTensor es))) then
        match c with
        | [] => None
        | k :: c' =>
            (fix nth_ev (l : list expr) (n : nat) {struct l} : option A :=
               match l, n with
               | [], _ => None
               | e0 :: _, O => py_eval iv e0 c' ds
               | _ :: t, S n' => nth_ev t n'
               end) es k
        end
      else None
  | Conditional cnd t f =>
      nod ds (match py_evalc iv cnd (if cfix then [] else c) with   (* defect: the value component *)
              | Some true => py_eval iv t c []
              | Some false => py_eval iv f c []
              | None => None
              end)
  | MinV a b => nod ds (obind2 (py_eval iv a c []) (py_eval iv b c []) (fun x y => Some (kmin x y)))
  | MaxV a b => nod ds (obind2 (py_eval iv a c []) (py_eval iv b c []) (fun x y => Some (kmax x y)))
  | Math f a => nod ds (obind (py_eval iv a c []) (pmath f))
  | Atan2 a b => nod ds (obind2 (py_eval iv a c []) (py_eval iv b c []) patan2)
  | Bessel k nu a => nod ds (obind2 (py_eval iv nu c []) (py_eval iv a c []) (pbessel k))
  | Vari a _ => nod ds (py_eval iv a c [])
  | Restricted _ a => nod ds (py_eval iv a c [])
  | Grad a _ | RefGrad a _ =>
      match c with
      | [] => None                                      (* component[-1]: IndexError *)
      | _ => py_eval iv a (removelast c) (ds ++ [last c 0])
      end
  | _ => None                                           (* Expr.evaluate: "not available" *)
  end
with py_evalc (iv : list (nat * nat)) (cn : cond) (c : list nat) {struct cn} : option bool :=
  match cn with
  | Cmp op a b => obind2 (py_eval iv a c []) (py_eval iv b c []) (fun x y => Some (bval (bcmp op x y)))
  | AndC a b => obind2 (py_evalc iv a c) (py_evalc iv b c) (fun x y => Some (andb x y))
  | OrC a b => obind2 (py_evalc iv a c) (py_evalc iv b c) (fun x y => Some (orb x y))
  | NotC a => obind (py_evalc iv a c) (fun x => Some (negb x))
  end.

(* Expr.__call__ -> _eval (after expand_derivatives, which is the subject of C03/C06):
   f.evaluate(coord, mapping, component, StackDict()) *)
Definition py_call (e : expr) (c : list nat) : option A := py_eval [] e c [].

(* well-formedness: what the UFL constructors guarantee, for the evaluable operator fragment       *)
Variable tsh : nat -> nat -> list nat.                (* declared shape of every terminal *)

Definition scalar (e : expr) : bool := is_nil (shape e).

Fixpoint wf (e : expr) : bool :=
  match e with
  | Zero _ _ | IntV _ | RealV _ _ | CplxV _ _ _ _ | RatV _ _ | Identity _ => true
  | PermSym n => Nat.leb 1 n
  | Term k id sh => leqb sh (tsh k id)
  | Sum a b => wf a && wf b && leqb (shape a) (shape b)
  | Product a b | Division a b | Power a b | MinV a b | MaxV a b | Atan2 a b | Bessel _ a b =>
      wf a && wf b && scalar a && scalar b
  | Abs a | Conj a | Real a | Imag a | IndexSum a _ _ | Vari a _ | Restricted _ a | Grad a _ => wf a
  | Math _ a => wf a && scalar a
  | Indexed a mi => wf a && Nat.eqb (length mi) (length (shape a))
  | ComponentTensor a _ => wf a && scalar a
  | ListTensor es =>
      match es with
      | [] => false
      | e0 :: _ => forallb (fun x => wf x && leqb (shape x) (shape e0)) es
      end
  | Conditional cnd t f => wfc cnd && wf t && wf f && leqb (shape t) (shape f)
  | _ => false
  end
with wfc (cn : cond) : bool :=
  match cn with
  | Cmp _ a b => wf a && wf b && scalar a && scalar b
  | AndC a b | OrC a b => wfc a && wfc b
  | NotC a => wfc a
  end.

(* the component is a full multi-index of e, or e is scalar (then the code may pass anything) *)
Definition okc (e : expr) (c : list nat) : Prop := length c = length (shape e) \/ shape e = [].
Definition cc (e : expr) (c : list nat) : list nat := match shape e with [] => [] | _ => c end.

(* the mathematical side                                                                            *)
Variable env : side -> nat -> nat -> list nat -> A.
Variable D DX : nat -> A -> A.
Notation DEN := (@den A env D DX ki).
Notation DENC := (@denc A env D DX ki).

Fixpoint iterD (ds : list nat) (v : A) : A :=
  match ds with [] => v | j :: t => D j (iterD t v) end.
Lemma iterD_app ds j v : iterD (ds ++ [j]) v = iterD ds (D j v).
Proof. induction ds as [|i t IH]; cbn; [reflexivity|]. rewrite IH. reflexivity. Qed.

(* Python primitives return the algebra's value when they return *)
Hypothesis H_pdiv : forall x y v, pdiv x y = Some v -> v = x / y.
Hypothesis H_ppow : forall x y v, ppow x y = Some v -> v = kpow x y.
Hypothesis H_patan2 : forall x y v, patan2 x y = Some v -> v = katan2 x y.
Hypothesis H_pmath : forall f x v, pmath f x = Some v -> v = kfn f x.
Hypothesis H_pbessel : forall k x y v, pbessel k x y = Some v -> v = kbessel k x y.
(* the algebra's power extends the natural powers (Python: x**0 == 1, x**n exact) *)
Hypothesis H_pow0 : forall x : A, kpow x k0 = k1.
Hypothesis H_powp : forall (x : A) p, kpow x (of_pos p) = kpown x (Pos.to_nat p).
(* conditions are decided pointwise *)
Hypothesis H_band : forall x y, bval (band x y) = andb (bval x) (bval y).
Hypothesis H_bor : forall x y, bval (bor x y) = orb (bval x) (bval y).
Hypothesis H_bnot : forall x, bval (bnot x) = negb (bval x).
Hypothesis H_kcond : forall b (x y : A), kcond b x y = if bval b then x else y.
(* the mapping describes the environment: callables return the (derivatives of the) field as nested
   tuples of the terminal's shape, plain values are constants *)
Hypothesis H_mcall : forall s k id f ds c v, mapping k id = Some (MCall f) ->
  pv_num (f ds) c = Some v -> length c = length (tsh k id) /\ v = iterD ds (env s k id c).
Hypothesis H_mval : forall s k id p c v, mapping k id = Some (MVal p) ->
  pv_num p c = Some v -> length c = length (tsh k id) /\ v = env s k id c.
Hypothesis H_mval_d : forall s k id p c j ds, mapping k id = Some (MVal p) ->
  iterD (j :: ds) (env s k id c) = k0.
Hypothesis H_sc : forall s id i v, nth_error xpt i = Some v -> v = env s KIND_SC id [i].
Hypothesis H_sc_sh : forall id, length (tsh KIND_SC id) = 1.


Lemma nod_some {X} ds (r : option X) v : nod ds r = Some v -> ds = [] /\ r = Some v.
Proof. destruct ds; cbn; [auto | discriminate]. Qed.
Lemma obind2_some {X Y Z} (a : option X) (b : option Y) (f : X -> Y -> option Z) v :
  obind2 a b f = Some v -> exists x y, a = Some x /\ b = Some y /\ f x y = Some v.
Proof. destruct a as [x|], b as [y|]; cbn; try discriminate. eauto. Qed.
Lemma obind_some {X Y} (a : option X) (f : X -> option Y) v :
  obind a f = Some v -> exists x, a = Some x /\ f x = Some v.
Proof. destruct a as [x|]; cbn; try discriminate. eauto. Qed.

Lemma sum_loop_spec n f g v :
  sum_loop n f = Some v -> (forall k w, f k = Some w -> w = g k) -> v = ksum n g.
Proof.
  revert v; induction n as [|n IH]; intros v; cbn [sum_loop ksum].
  - intros E _. congruence.
  - intros E H. apply obind2_some in E. destruct E as (x & y & E1 & E2 & E3).
    inversion E3; subst. rewrite (IH x E1 H), (H n y E2). reflexivity.
Qed.

Lemma okc_scalar e c : scalar e = true -> okc e c.
Proof. intros H. right. apply is_nil_eq. exact H. Qed.
Lemma cc_scalar e c : scalar e = true -> cc e c = [].
Proof. intros H. unfold cc. rewrite (is_nil_eq _ H). reflexivity. Qed.
Lemma cc_same e e' c : shape e = shape e' -> cc e c = cc e' c.
Proof. unfold cc. intros ->. reflexivity. Qed.
Lemma okc_same e e' c : shape e = shape e' -> okc e c -> okc e' c.
Proof. unfold okc. intros ->. auto. Qed.
Lemma cc_full e c : length c = length (shape e) -> cc e c = c.
Proof. unfold cc. destruct (shape e); [destruct c; cbn; [auto|discriminate] | auto]. Qed.

Ltac inv_nod H := apply nod_some in H; let E := fresh "Eds" in destruct H as [E H]; subst.
Ltac inv_b2 H x y := apply obind2_some in H;
  let E1 := fresh "E1" in let E2 := fresh "E2" in destruct H as (x & y & E1 & E2 & H).
Ltac inv_b1 H x := apply obind_some in H; let E1 := fresh "E1" in destruct H as (x & E1 & H).

Definition Sound (e : expr) : Prop :=
  forall s iv c ds v, wf e = true -> okc e c -> py_eval iv e c ds = Some v ->
    v = iterD ds (DEN s (rho_of iv) e (cc e c)).
Definition SoundC (cn : cond) : Prop :=
  forall s iv c b, wfc cn = true -> py_evalc iv cn c = Some b -> b = bval (DENC s (rho_of iv) cn).

(* scalar operands evaluated at whatever component was passed *)
Lemma use_scalar e : Sound e -> forall s iv c v, wf e = true -> scalar e = true ->
  py_eval iv e c [] = Some v -> v = DEN s (rho_of iv) e [].
Proof.
  intros IH s iv c v W S E. specialize (IH s iv c [] v W (okc_scalar e c S) E).
  rewrite (cc_scalar e c S) in IH. exact IH.
Qed.

(* a primitive [p] applied to the results for scalar operands is [p] applied to their values *)
Lemma ev_scalar1 {X} (p : A -> option X) a s iv c v :
  Sound a -> wf a = true -> scalar a = true ->
  obind (py_eval iv a c []) p = Some v -> p (DEN s (rho_of iv) a []) = Some v.
Proof. intros IH W S E. inv_b1 E x. rewrite <- (use_scalar a IH s iv c x); auto. Qed.
Lemma ev_scalar2 {X} (p : A -> A -> option X) a b s iv ca cb v :
  Sound a -> Sound b -> wf a = true -> wf b = true -> scalar a = true -> scalar b = true ->
  obind2 (py_eval iv a ca []) (py_eval iv b cb []) p = Some v ->
  p (DEN s (rho_of iv) a []) (DEN s (rho_of iv) b []) = Some v.
Proof.
  intros IHa IHb Wa Wb Sa Sb E. inv_b2 E x y.
  rewrite <- (use_scalar a IHa s iv ca x), <- (use_scalar b IHb s iv cb y); auto.
Qed.
(* abs / conj / real / imag act on the component they are asked for *)
Lemma ev_point (phi : A -> A) a s iv c v :
  Sound a -> wf a = true -> okc a c ->
  obind (py_eval iv a c []) (fun x => Some (phi x)) = Some v -> v = phi (DEN s (rho_of iv) a (cc a c)).
Proof. intros IH W OK E. inv_b1 E x. injection E as <-. f_equal. exact (IH s iv c [] x W OK E1). Qed.

Lemma nth_ev_eq iv es k c ds :
  (fix nth_ev (l : list expr) (n : nat) {struct l} : option A :=
     match l, n with
     | [], _ => None
     | e0 :: _, O => py_eval iv e0 c ds
     | _ :: t, S n' => nth_ev t n'
     end) es k
  = match nth_error es k with Some e0 => py_eval iv e0 c ds | None => None end.
Proof. revert k; induction es as [|e es IH]; intros [|k]; try reflexivity. apply IH. Qed.

Theorem C24_eval_sound_mutual : (forall e, Sound e) /\ (forall cn, SoundC cn).
Proof.
  apply expr_cond_full_ind; unfold Sound, SoundC; intros;
    lazymatch goal with E : _ = Some _ |- _ => rename E into Ev end; cbn [py_eval py_evalc] in Ev;
    try discriminate Ev;
    lazymatch goal with W : _ = true |- _ => rename W into Wf end; cbn [wf wfc] in Wf;
    try discriminate Wf; bsplit;
    try lazymatch goal with O : okc _ _ |- _ => rename O into OK end.
  (* literals *)
  1-5: inv_nod Ev; injection Ev as <-; reflexivity.
  - (* Identity *)
    inv_nod Ev. unfold cc; cbn [shape]. destruct c as [|i [|j [|? ?]]]; try discriminate Ev.
    injection Ev as <-. reflexivity.
  - (* PermSym *)
    destruct efix; [|discriminate Ev]. inv_nod Ev. injection Ev as <-. apply Nat.leb_le in Wf.
    destruct n; [lia|]. reflexivity.
  - (* Term *)
    apply leqb_eq in Wf. subst sh. destruct (Nat.eqb k KIND_SC) eqn:EK.
    + apply Nat.eqb_eq in EK. subst k. unfold sc_eval in Ev. inv_nod Ev.
      destruct OK as [OK|OK]; cbn [shape] in OK.
      2:{ pose proof (H_sc_sh id) as L. rewrite OK in L. discriminate L. }
      rewrite (cc_full (Term KIND_SC id (tsh KIND_SC id)) c OK). rewrite H_sc_sh in OK.
      destruct c as [|i [|? ?]]; try discriminate OK. cbn [den iterD]. apply H_sc; auto.
    + unfold term_eval in Ev. destruct (mapping k id) as [[f|p]|] eqn:EM; try discriminate Ev.
      * destruct (H_mcall s k id f ds c v EM Ev) as [L V]. rewrite (cc_full (Term k id (tsh k id)) c L). exact V.
      * destruct ds as [|j ds].
        -- destruct (H_mval s k id p c v EM Ev) as [L V]. rewrite (cc_full (Term k id (tsh k id)) c L). exact V.
        -- injection Ev as <-. cbn [den]. symmetry. eapply H_mval_d; eauto.
  - (* Sum: both operands have the shape of the sum *)
    inv_nod Ev. inv_b2 Ev x y. injection Ev as <-.
    match goal with S : leqb _ _ = true |- _ => apply leqb_eq in S; rename S into SH end.
    rewrite (H s iv c [] x), (H0 s iv c [] y); auto; [|eapply okc_same; [exact SH | assumption]].
    cbn [iterD den]. rewrite (cc_same (Sum a b) a c), <- (cc_same a b c); auto. ring.
  - (* Product *)
    inv_nod Ev. apply (ev_scalar2 _ a b s) in Ev; auto. injection Ev as <-. cbn [iterD den]. ring.
  - (* Division *) inv_nod Ev. apply (ev_scalar2 _ a b s) in Ev; auto. apply H_pdiv in Ev. exact Ev.
  - (* Power *)
    inv_nod Ev. apply (ev_scalar2 _ a b s) in Ev; auto. apply H_ppow in Ev.
    cbn [iterD]. rewrite den_Power, (pow_z_kpow _ _ _ _ _ _ _ _ _ H_pow0 H_powp). exact Ev.
  - (* Abs *) inv_nod Ev. exact (ev_point kabs a s iv c v H Wf OK Ev).
  - (* Conj *) inv_nod Ev. exact (ev_point kconj a s iv c v H Wf OK Ev).
  - (* Real *) inv_nod Ev. exact (ev_point kre a s iv c v H Wf OK Ev).
  - (* Imag *) inv_nod Ev. exact (ev_point kim a s iv c v H Wf OK Ev).
  - (* Indexed: the component is replaced by the value of the multi-index *)
    destruct (mi_eval iv mi) as [c'|] eqn:EM; [|discriminate Ev].
    destruct (mi_eval_spec iv mi c' EM) as [M1 M2].
    match goal with L : Nat.eqb _ _ = true |- _ => apply Nat.eqb_eq in L; rewrite L in M2 end.
    rewrite (H s iv c' ds v); auto; [|left; exact M2].
    rewrite (cc_full a c' M2). cbn [den]. rewrite M1. reflexivity.
  - (* IndexSum *)
    inv_nod Ev. cbn [iterD den]. eapply sum_loop_spec; [exact Ev|]. intros k w Ek.
    rewrite (H s ((i, k) :: iv) c [] w); auto.
  - (* ComponentTensor *)
    inv_nod Ev. destruct (Nat.eqb (length ix) (length c)) eqn:EL; [|discriminate Ev]. apply Nat.eqb_eq in EL.
    rewrite (use_scalar a H s (push_all iv ix c) [] v); auto.
    rewrite rho_push_all. cbn [iterD den].
    rewrite cc_full; [reflexivity|]. cbn [shape]. rewrite map_length. auto.
  - (* ListTensor: the first entry of the component selects the operand *)
    destruct (Nat.eqb (length c) (length (shape (ListTensor es)))) eqn:EL; [|discriminate Ev].
    apply Nat.eqb_eq in EL. rewrite (cc_full _ c EL).
    destruct c as [|k c']; [discriminate Ev|]. rewrite nth_ev_eq in Ev. rewrite den_ListTensor.
    destruct (nth_error es k) as [e|] eqn:En; [|discriminate Ev]. apply nth_error_In in En.
    destruct es as [|e0 es0]; [discriminate Wf|]. cbn [shape length] in EL. injection EL as EL.
    rewrite forallb_forall in Wf. specialize (Wf e En). rewrite Forall_forall in H. bsplit.
    match goal with S : leqb _ _ = true |- _ => apply leqb_eq in S; rewrite <- S in EL end.
    rewrite (H e En s iv c' ds v); auto; [|left; exact EL]. rewrite (cc_full e c' EL). reflexivity.
  - (* Conditional *)
    inv_nod Ev.
    match goal with S : leqb _ _ = true |- _ => apply leqb_eq in S; rename S into SH end.
    destruct (py_evalc iv c (if cfix then [] else c0)) as [b|] eqn:EC; [|discriminate Ev].
    cbn [iterD]. rewrite den_Conditional, H_kcond, <- (H s iv (if cfix then [] else c0) b); auto.
    destruct b.
    + rewrite (cc_same (Conditional c t f) t c0 eq_refl). apply (H0 s iv c0 [] v); auto.
    + rewrite (cc_same (Conditional c t f) f c0 SH). apply (H1 s iv c0 [] v); auto.
      eapply okc_same; [exact SH | assumption].
  - (* MinV *) inv_nod Ev. apply (ev_scalar2 _ a b s) in Ev; auto. injection Ev as <-. reflexivity.
  - (* MaxV *) inv_nod Ev. apply (ev_scalar2 _ a b s) in Ev; auto. injection Ev as <-. reflexivity.
  - (* Math *) inv_nod Ev. apply (ev_scalar1 _ a s) in Ev; auto. apply H_pmath in Ev. exact Ev.
  - (* Atan2 *) inv_nod Ev. apply (ev_scalar2 _ a b s) in Ev; auto. apply H_patan2 in Ev. exact Ev.
  - (* Bessel *) inv_nod Ev. apply (ev_scalar2 _ nu a s) in Ev; auto. apply H_pbessel in Ev. exact Ev.
  - (* Vari *) inv_nod Ev. exact (H s iv c [] v Wf OK Ev).
  - (* Restricted *) inv_nod Ev. exact (H (Some plus) iv c [] v Wf OK Ev).
  - (* Grad: the last entry of the component joins the derivatives *)
    destruct c as [|c1 ct] eqn:Ec; [discriminate Ev|]. rewrite <- Ec in *.
    assert (Es : c = removelast c ++ [last c 0]) by (apply app_removelast_last; rewrite Ec; discriminate).
    remember (removelast c) as c0 eqn:E0. remember (last c 0) as j eqn:Ej. clear E0 Ej Ec. subst c.
    assert (L : length c0 = length (shape a)).
    { destruct OK as [OK|OK]; cbn [shape] in OK; [|destruct (shape a); discriminate OK].
      rewrite !app_length in OK. cbn [length] in OK. lia. }
    rewrite (cc_full (Grad a g)) by (cbn [shape]; rewrite !app_length, L; reflexivity).
    rewrite den_Grad_snoc, <- iterD_app, <- (cc_full a _ L). apply H; auto. left. exact L.
  - (* Cmp *) apply (ev_scalar2 _ a b s) in Ev; auto. injection Ev as <-. reflexivity.
  - (* AndC *) inv_b2 Ev x y. injection Ev as <-. cbn [denc]. rewrite H_band, <- (H s iv c x), <- (H0 s iv c y); auto.
  - (* OrC *) inv_b2 Ev x y. injection Ev as <-. cbn [denc]. rewrite H_bor, <- (H s iv c x), <- (H0 s iv c y); auto.
  - (* NotC *) inv_b1 Ev x. injection Ev as <-. cbn [denc]. rewrite H_bnot, <- (H s iv c x); auto.
Qed.

Theorem C24_eval_sound e s iv c ds v :
  wf e = true -> okc e c -> py_eval iv e c ds = Some v ->
  v = iterD ds (DEN s (rho_of iv) e (cc e c)).
Proof. apply (proj1 C24_eval_sound_mutual). Qed.

(* the user-level statement: e(x, mapping, component) with a full component *)
Theorem C24_call_sound e c v :
  wf e = true -> length c = length (shape e) -> py_call e c = Some v ->
  v = DEN None (fun _ => 0) e c.
Proof.
  intros W L E. unfold py_call in E.
  rewrite (C24_eval_sound e None [] c [] v W (or_introl L) E). cbn [iterD rho_of].
  rewrite (cc_full e c L). reflexivity.
Qed.

End Model.

Print Assumptions C24_eval_sound.
Print Assumptions C24_call_sound.
Print Assumptions C24_stackdict_push_pop.
