(* C07, hand-written part 3: tetrahedron circumradius (Crelle's formula); same conventions as C07_thms.v. *)
Require Import UFLV.Props.C07_tac UFLV.Props.C07_spec.

Section Crelle.
Variable KT : Type.
Variables (z0 z1 : KT) (add mul sub : KT -> KT -> KT) (opp : KT -> KT) (div : KT -> KT -> KT) (inv : KT -> KT).
Hypothesis Fth : field_theory z0 z1 add mul sub opp div inv (@eq KT).
Variables (conj re im abs : KT -> KT) (fn : mathfn -> KT -> KT) (pow atan2 : KT -> KT -> KT)
          (bessel : bkind -> KT -> KT -> KT).
Variable BT : Type.
Variables (cmp : cmpop -> KT -> KT -> BT) (and_ or_ : BT -> BT -> BT) (not_ : BT -> BT)
          (cond_ : BT -> KT -> KT -> KT) (min_ max_ : KT -> KT -> KT).
Definition A : ualg :=
  Build_ualg KT z0 z1 add mul sub opp div inv Fth conj re im abs fn pow atan2 bessel
             BT cmp and_ or_ not_ cond_ min_ max_.
Add Field FfC07c : Fth.
Hypothesis char0 : forall p, @of_pos A p <> z0.

Variable V : nat -> nat -> KT.
Variable co : KT.

Notation Jm := (Jm A V).
Notation det := (@Den.det A).
Notation sqrt_ := (fn FSqrt).
Notation nrm2 := (nrm2 A).
Notation dotp := (dotp A).
Definition sq_ok (x : KT) : Prop := mul (sqrt_ x) (sqrt_ x) = x.
Definition abs_sq : Prop := forall x : KT, mul (abs x) (abs x) = mul x x.
Definition dist2 (g : nat) (c : nat -> KT) (k : nat) : KT := nrm2 g (fun i => sub (c i) (V k i)).

(* ---- circumradius of a tetrahedron: Crelle's formula ----------------------------------------- *)
(* circumcentre c = v0 + N / (2 det[a b c]),  N = |a|^2 b x c + |b|^2 c x a + |c|^2 a x b,
   a = v1 - v0, b = v2 - v0, c = v3 - v0 *)
Definition tet_N (i : nat) : KT :=
  let a k := sub (V 1 k) (V 0 k) in
  let b k := sub (V 2 k) (V 0 k) in
  let c k := sub (V 3 k) (V 0 k) in
  add (add (mul (nrm2 3 a) (cross3 A b c i)) (mul (nrm2 3 b) (cross3 A c a i)))
      (mul (nrm2 3 c) (cross3 A a b i)).
Definition tet_centre (i : nat) : KT := add (V 0 i) (div (tet_N i) (mul (add z1 z1) (det 3 Jm))).

(* Heron's product s(s-a)(s-b)(s-c) is a polynomial in the squares *)
Definition heron16 (A2 B2 C2 : KT) : KT :=     (* 16 * (area of the triangle with squared sides A2 B2 C2)^2 *)
  sub (mul (add z1 z1) (add (add (mul A2 B2) (mul B2 C2)) (mul C2 A2)))
      (add (add (mul A2 A2) (mul B2 B2)) (mul C2 C2)).
Lemma heron_poly (la lb lc : KT) :
  let s := mul (add (add la lb) lc) (div z1 (add z1 z1)) in
  mul (mul (mul s (sub s la)) (sub s lb)) (sub s lc) =
  div (heron16 (mul la la) (mul lb lb) (mul lc lc))
      (mul (mul (add z1 z1) (add z1 z1)) (mul (add z1 z1) (add z1 z1))).
Proof. intros s. subst s. unfold heron16. field. nz_solve char0. Qed.

Lemma mul_sq (x y : KT) : mul (mul x y) (mul x y) = mul (mul x x) (mul y y).
Proof. ring. Qed.

Definition tet_S : KT :=          (* the argument of the outer sqrt in circ 3 3 *)
  let la := mul (vlen A V 3 0 3) (vlen A V 3 1 2) in
  let lb := mul (vlen A V 3 0 2) (vlen A V 3 1 3) in
  let lc := mul (vlen A V 3 0 1) (vlen A V 3 2 3) in
  let s := mul (add (add la lb) lc) (div z1 (add z1 z1)) in
  mul (mul (mul s (sub s la)) (sub s lb)) (sub s lc).

Lemma tet_S_poly :
  sq_ok (nrm2 3 (vvec A V 0 3)) -> sq_ok (nrm2 3 (vvec A V 1 2)) -> sq_ok (nrm2 3 (vvec A V 0 2)) ->
  sq_ok (nrm2 3 (vvec A V 1 3)) -> sq_ok (nrm2 3 (vvec A V 0 1)) -> sq_ok (nrm2 3 (vvec A V 2 3)) ->
  tet_S = div (heron16 (mul (nrm2 3 (vvec A V 0 3)) (nrm2 3 (vvec A V 1 2)))
                       (mul (nrm2 3 (vvec A V 0 2)) (nrm2 3 (vvec A V 1 3)))
                       (mul (nrm2 3 (vvec A V 0 1)) (nrm2 3 (vvec A V 2 3))))
              (mul (mul (add z1 z1) (add z1 z1)) (mul (add z1 z1) (add z1 z1))).
Proof.
  unfold sq_ok, tet_S, vlen, ksqrt. change (@kfn A) with fn. intros H03 H12 H02 H13 H01 H23.
  rewrite heron_poly. f_equal. rewrite !mul_sq, H03, H12, H02, H13, H01, H23. reflexivity.
Qed.

(* Crelle's identity, 16 * Heron(products of opposite squared edges) = 4 |N|^2, as a polynomial identity in
   three arbitrary vectors: ring then works on the edge vectors at v0, not on the vertex coordinates.
   [N_of] at the edge vectors is [tet_N] by conversion, which [crelle_poly] uses. *)
Definition N_of (a b c : nat -> KT) (i : nat) : KT :=
  add (add (mul (nrm2 3 a) (cross3 A b c i)) (mul (nrm2 3 b) (cross3 A c a i))) (mul (nrm2 3 c) (cross3 A a b i)).
Lemma crelle_vec (a b c : nat -> KT) :
  heron16 (mul (nrm2 3 c) (nrm2 3 (fun i => sub (b i) (a i))))
          (mul (nrm2 3 b) (nrm2 3 (fun i => sub (c i) (a i))))
          (mul (nrm2 3 a) (nrm2 3 (fun i => sub (c i) (b i))))
  = mul (mul (add z1 z1) (add z1 z1)) (nrm2 3 (N_of a b c)).
Proof. unfold heron16. rg. Qed.

Lemma crelle_poly :
  heron16 (mul (nrm2 3 (vvec A V 0 3)) (nrm2 3 (vvec A V 1 2)))
          (mul (nrm2 3 (vvec A V 0 2)) (nrm2 3 (vvec A V 1 3)))
          (mul (nrm2 3 (vvec A V 0 1)) (nrm2 3 (vvec A V 2 3)))
  = mul (mul (add z1 z1) (add z1 z1)) (nrm2 3 tet_N).
Proof.
  assert (E : forall p q, nrm2 3 (vvec A V (S p) (S q)) = nrm2 3 (fun i => sub (Jm i q) (Jm i p))) by (intros; rg).
  rewrite !E. exact (crelle_vec (fun i => Jm i 0) (fun i => Jm i 1) (fun i => Jm i 2)).
Qed.

Lemma sq_quot1 (l v c : KT) : v <> z0 -> c <> z0 ->
  mul (div l (mul c v)) (div l (mul c v)) = div (mul l l) (mul (mul c c) (mul v v)).
Proof. intros Hv Hc. field. split; assumption. Qed.

Lemma circ_tet_unfold :
  abs_sq -> vol A V co 3 3 <> z0 -> sq_ok tet_S ->
  mul (circ A V co 3 3) (circ A V co 3 3) =
    div tet_S (mul (mul (@of_nat A 6) (@of_nat A 6))
                   (mul (mul (r0 A 3) (det 3 Jm)) (mul (r0 A 3) (det 3 Jm)))).
Proof.
  intros Habs Hv HS. unfold circ, heron, ksqrt. cbv zeta.
  change (@kfn A) with fn. change (@kmul A) with mul. change (@kdiv A) with div.
  change (@kadd A) with add. change (@ksub A) with sub.
  change (half A) with (div z1 (add z1 z1)).
  fold tet_S.
  rewrite sq_quot1; [ | exact Hv | intro E; apply (char0 6%positive); exact E ].
  unfold sq_ok in HS. rewrite HS. unfold vol. change (@kabs A) with abs. rewrite Habs. reflexivity.
Qed.

(* c is equidistant from the vertices because 2 (c - v0).(v_j - v0) = |v_j - v0|^2, which for c - v0 = N / (2 det)
   is N.a_j = |a_j|^2 det: a polynomial identity, whereas the distances themselves are rational functions of the
   vertex coordinates *)
Lemma equidist3 (u a : nat -> KT) :
  mul (add z1 z1) (dotp 3 u a) = nrm2 3 a -> nrm2 3 (fun i => sub (u i) (a i)) = nrm2 3 u.
Proof.
  intros H. transitivity (add (nrm2 3 u) (sub (nrm2 3 a) (mul (add z1 z1) (dotp 3 u a)))); [rg|].
  rewrite H. generalize (nrm2 3 u) (nrm2 3 a). intros x y. change (add x (sub y y) = x). ring.
Qed.
Lemma tet_N_dot j : j < 3 ->
  dotp 3 tet_N (fun i => Jm i j) = mul (nrm2 3 (fun i => Jm i j)) (det 3 Jm).
Proof. intros Hj. fin j; rg. Qed.
Lemma dot_div (N a : nat -> KT) d : d <> z0 ->
  mul (add z1 z1) (dotp 3 (fun i => div (N i) (mul (add z1 z1) d)) a) = div (dotp 3 N a) d.
Proof. intros Hd. norm_goal. field. nz_solve char0. Qed.
Lemma tet_equidist j : j < 3 -> det 3 Jm <> z0 -> dist2 3 tet_centre 0 = dist2 3 tet_centre (S j).
Proof.
  intros Hj Hd. unfold dist2, tet_centre. symmetry.
  transitivity (nrm2 3 (fun i => sub (div (tet_N i) (mul (add z1 z1) (det 3 Jm))) (Jm i j))).
  { generalize tet_N (det 3 Jm). intros N d. rg. }
  rewrite equidist3.
  { generalize tet_N (det 3 Jm). intros N d. rg. }
  rewrite dot_div, tet_N_dot by assumption. field. exact Hd.
Qed.

(* the lowered tetrahedron formula (products of opposite edges, Heron, / 6V), squared, is the
   squared distance of the circumcentre from each of the four vertices *)
Theorem circ_tetrahedron k : k < 4 ->
  abs_sq -> det 3 Jm <> z0 -> vol A V co 3 3 <> z0 -> sq_ok tet_S ->
  sq_ok (nrm2 3 (vvec A V 0 3)) -> sq_ok (nrm2 3 (vvec A V 1 2)) -> sq_ok (nrm2 3 (vvec A V 0 2)) ->
  sq_ok (nrm2 3 (vvec A V 1 3)) -> sq_ok (nrm2 3 (vvec A V 0 1)) -> sq_ok (nrm2 3 (vvec A V 2 3)) ->
  mul (circ A V co 3 3) (circ A V co 3 3) = dist2 3 tet_centre k.
Proof.
  intros Hk Habs Hd Hv HS H03 H12 H02 H13 H01 H23.
  rewrite circ_tet_unfold by assumption. rewrite tet_S_poly by assumption. rewrite crelle_poly.
  (* (4 |N|^2 / 16) / (36 (det/6)^2) = |N|^2 / (4 det^2) = |c - v0|^2, and c is equidistant *)
  assert (E0 : div (div (mul (mul (add z1 z1) (add z1 z1)) (nrm2 3 tet_N))
                        (mul (mul (add z1 z1) (add z1 z1)) (mul (add z1 z1) (add z1 z1))))
                   (mul (mul (@of_nat A 6) (@of_nat A 6))
                        (mul (mul (r0 A 3) (det 3 Jm)) (mul (r0 A 3) (det 3 Jm))))
               = dist2 3 tet_centre 0).
  { unfold dist2, tet_centre. set (N := tet_N). set (d := det 3 Jm) in *.
    assert (EN : nrm2 3 (fun i => sub (add (V 0 i) (div (N i) (mul (add z1 z1) d))) (V 0 i))
                 = div (nrm2 3 N) (mul (mul (add z1 z1) (add z1 z1)) (mul d d))).
    { clearbody N d. norm_goal. field. nz_solve char0. }
    rewrite EN. clearbody N d. norm_goal. field. nz_solve char0. }
  rewrite E0. clear E0.
  destruct k as [|k]; [reflexivity|]. apply tet_equidist; [lia|exact Hd].
Qed.

End Crelle.

Print Assumptions crelle_poly.
Print Assumptions circ_tetrahedron.
