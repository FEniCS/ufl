(* C18: the estimated degree bounds the polynomial degree.

   Setting.  A is any UFL algebra (the values of expressions: fields over a cell), and
   [hasdeg x n] reads "x is a polynomial of total degree <= n in the spatial coordinates".  The laws
   assumed of [hasdeg] (Section hypotheses, discharged as premises of the theorems) are the degree
   laws of polynomials: deg(p+q) <= max, deg(p*q) <= +, constants have degree 0, deg(d_j p) <=
   deg p - 1 on affine simplices (no reduction is claimed for quadrilateral / hexahedral cells,
   exactly like the code), conj/re/im keep the degree.  C18_poly.v proves the laws of +, *, -, constants,
   powers, the derivative and monotonicity for polynomials in one variable over Z (coefficient lists);
   that type is no [ualg], so this Section is not instantiated at it.

   Environment hypothesis: component c of terminal (k, id) has degree <= [cdeg ti k id c], i.e. the
   embedded_superdegree of the sub-element that owns THAT physical component for form arguments,
   the degree of the coordinate element for x, 0 for constants.

   C18_sound_partial : for ALL expressions e of the polynomial fragment (unbounded nesting), all
     components, index valuations, sides: hasdeg (den e c) (estimate e), provided [guard e]: every
     fixed-index component of a form argument to which [indexed] attributes a sub-element's degree
     is attributed a degree >= that of the owning sub-element.
   C18_sound_dom : the guard holds, for expressions whose indexed terminals carry the recorded shape,
     when every element on which [indexed] walks satisfies [dom_elem];
   C18_sound_identity : so it does for every element whose component map is the identity (fx = false or true);
   C18_sound_fixed : and for fx = true (the [indexed] of /repo, which walks only on elements with a
     non-symmetric pullback and physical size = reference size) under [fixed_cfg]: no guard on the expression.
   C18_indexed_refuted : for fx = false (the pinned tree) the statement is false without the guard
     (symmetric element P1,P3,P1). *)
Require Import UFLV.Core.Facts UFLV.Props.C21_ind UFLV.Props.C18_model.
Require Import Lia.

Section Sound.
Variable A : ualg.
Add Field AfC18 : (kfield A).
Open Scope K_scope.
Variable env : side -> nat -> nat -> list nat -> A.
Variable D DX : nat -> A -> A.
Variable ki : A.
Variable quad : bool.
Variable ti : cfg.
Variable fx : bool.
Variable hasdeg : A -> nat -> Prop.

Hypothesis h_mono : forall x n m, hasdeg x n -> n <= m -> hasdeg x m.
Hypothesis h_zero : hasdeg k0 0.
Hypothesis h_one : hasdeg k1 0.
Hypothesis h_add : forall x y n m, hasdeg x n -> hasdeg y m -> hasdeg (x + y) (Nat.max n m).
Hypothesis h_mul : forall x y n m, hasdeg x n -> hasdeg y m -> hasdeg (x * y) (n + m)%nat.
Hypothesis h_opp : forall x n, hasdeg x n -> hasdeg (- x) n.
(* division by a constant (an element of degree 0) *)
Hypothesis h_divc : forall x c n, hasdeg x n -> hasdeg c 0 -> hasdeg (x / c) n.
Hypothesis h_conj : forall x n, hasdeg x n -> hasdeg (kconj x) n.
Hypothesis h_re : forall x n, hasdeg x n -> hasdeg (kre x) n.
Hypothesis h_im : forall x n, hasdeg x n -> hasdeg (kim x) n.
Hypothesis h_ki : hasdeg ki 0.
Hypothesis h_D : forall j x n, hasdeg x n -> hasdeg (D j x) (reduce_degree quad n).
Hypothesis h_DX : forall j x n, hasdeg x n -> hasdeg (DX j x) (reduce_degree quad n).
(* the environment: polynomial fields of the degrees the elements promise *)
Hypothesis h_env : forall s k id c, hasdeg (env s k id c) (cdeg ti k id c).
Hypothesis h_wf : wf_cfg ti.

Notation DEN := (@den A env D DX ki).
Notation est := (estimate quad ti fx).

(* the elements of degree 0 contain every literal *)
Lemma hd_const : subfield (fun x => hasdeg x 0).
Proof.
  split; [exact h_zero|exact h_one|exact (fun x y => h_add x y 0 0)|exact (fun x y => h_mul x y 0 0)
         |exact (fun x => h_opp x 0)|exact (fun x y => h_divc x y 0)].
Qed.

Lemma hd_zero n : hasdeg k0 n.
Proof. apply h_mono with 0; [exact h_zero | apply Nat.le_0_l]. Qed.

(* the degree laws in the vocabulary of the estimator *)
Lemma hd_add2 x y a b : hasdeg x a -> hasdeg y b -> hasdeg (x + y) (max_degrees [a; b]).
Proof. cbn [max_degrees fold_right]. rewrite Nat.max_0_r. apply h_add. Qed.
Lemma hd_mul2 x y a b : hasdeg x a -> hasdeg y b -> hasdeg (x * y) (add_degrees [a; b]).
Proof. cbn [add_degrees fold_right]. rewrite Nat.add_0_r. apply h_mul. Qed.
Lemma hd_sub x y m : hasdeg x m -> hasdeg y m -> hasdeg (x - y) m.
Proof.
  intros Hx Hy. replace (x - y) with (x + - y) by ring. rewrite <- (Nat.max_id m).
  apply h_add; [exact Hx | apply h_opp; exact Hy].
Qed.

Lemma hd_ksum d (f : nat -> A) n : (forall k, hasdeg (f k) n) -> hasdeg (ksum d f) n.
Proof.
  intros H. induction d as [|d IH]; cbn [ksum]; [apply hd_zero|].
  rewrite <- (Nat.max_id n). apply h_add; [exact IH | apply H].
Qed.
Lemma hd_ksum_shape sh : forall (f : list nat -> A) n, (forall I, hasdeg (f I) n) -> hasdeg (ksum_shape sh f) n.
Proof.
  induction sh as [|d sh IH]; intros f n H; cbn [ksum_shape]; [apply H|].
  apply hd_ksum. intros k. apply IH. intros I. apply H.
Qed.
Lemma hd_kpown x n m : hasdeg x n -> hasdeg (kpown x m) (n * m)%nat.
Proof.
  intros H. induction m as [|m IH]; cbn [kpown].
  - rewrite Nat.mul_0_r. exact h_one.
  - rewrite Nat.mul_succ_r, Nat.add_comm. apply h_mul; assumption.
Qed.

Lemma max_degrees_in d l : In d l -> d <= max_degrees l.
Proof.
  induction l as [|x t IH]; intros H; [destruct H|]. cbn [max_degrees fold_right].
  destruct H as [->|H]; [apply Nat.le_max_l|]. etransitivity; [apply IH, H|apply Nat.le_max_r].
Qed.

Lemma cdeg_le k id c : cdeg ti k id c <= t_deg (ti k id).
Proof.
  unfold cdeg. pose proof (h_wf k id) as W. unfold wf_tinfo in W.
  destruct (t_elem (ti k id)) as [el|]; [|reflexivity].
  destruct (is_formarg k); [|reflexivity].
  destruct (nth_in_or_default (flatten c (strides (t_shape (ti k id)))) (e_pdeg el) (t_deg (ti k id))) as [Hin|E];
    [|rewrite E; reflexivity].
  rewrite forallb_forall in W. apply Nat.leb_le, W, Hin.
Qed.

Lemma all_fixed_map rho mi c : all_fixed mi = Some c -> map (idxval rho) mi = c.
Proof.
  revert c. induction mi as [|i t IH]; intros c H; cbn [all_fixed] in H.
  - injection H as <-. reflexivity.
  - destruct i as [n|j]; [|discriminate]. destruct (all_fixed t) as [l|]; [|discriminate].
    injection H as <-. cbn [map idxval]. f_equal. apply IH. reflexivity.
Qed.

Lemma reduce_le n : reduce_degree quad n <= n.
Proof. unfold reduce_degree. destruct quad; lia. Qed.

(* what [indexed] does when its walk finds a sub-element: the operand is a form argument with fixed
   indices, and the walk runs over the flat component *)
Lemma indexed_walk_Some a mi d :
  indexed_walk fx ti a mi = Some d ->
  exists k id sh cf el,
    a = Term k id sh /\ is_formarg k = true /\ all_fixed mi = Some cf /\ t_elem (ti k id) = Some el /\
    (fx = true -> e_sym el = false /\ shape_size sh = e_refsize el) /\
    walk (e_subs el) (flatten cf (strides sh)) 0 = Some d.
Proof.
  unfold indexed_walk. destruct a; try discriminate.
  destruct (is_formarg k) eqn:Ek; [|discriminate].
  destruct (all_fixed mi) as [cf|]; [|discriminate].
  destruct (t_elem (ti k id)) as [el|] eqn:Eel; [|discriminate].
  destruct (e_subs el) eqn:Es; [discriminate|]. rewrite <- Es.
  destruct (Nat.eqb (length mi) (length sh) && _) eqn:Ec; [|discriminate]. intros Ew.
  exists k, id, sh, cf, el.
  split; [reflexivity|]. split; [exact Ek|]. split; [reflexivity|]. split; [exact Eel|]. split; [|exact Ew].
  intros ->. apply andb_prop in Ec. destruct Ec as [_ Ec]. cbn [negb orb] in Ec.
  apply andb_prop in Ec. destruct Ec as [E1 E2]. split; [apply negb_true_iff, E1|apply Nat.eqb_eq, E2].
Qed.

Lemma indexed_ok_Some a mi d :
  indexed_walk fx ti a mi = Some d -> indexed_ok ti fx a mi = true ->
  exists k id sh cf, a = Term k id sh /\ all_fixed mi = Some cf /\ cdeg ti k id cf <= d.
Proof.
  unfold indexed_ok. intros ->. destruct a; try discriminate.
  destruct (all_fixed mi) as [cf|]; [|discriminate]. intros H. apply andb_prop in H. destruct H as [_ H].
  apply Nat.leb_le in H. eauto 8.
Qed.

Lemma hd_ListTensor es s rho c :
  (forall x, In x es -> forall c', hasdeg (DEN s rho x c') (est x)) ->
  hasdeg (DEN s rho (ListTensor es) c) (max_degrees (map est es)).
Proof.
  intros H. rewrite den_ListTensor. destruct c as [|k c]; [apply hd_zero|].
  destruct (nth_error es k) as [x|] eqn:E; [|apply hd_zero]. apply nth_error_In in E.
  apply h_mono with (est x); [apply H, E|apply max_degrees_in, in_map, E].
Qed.

Lemma sound_all :
  (forall e (Hp : poly quad ti fx e = true) (Hg : guard ti fx e = true) s rho c, hasdeg (DEN s rho e c) (est e)) /\
  (forall c : cond, True).
Proof.
  (* the induction hypotheses are H, H0 *)
  apply expr_cond_full_ind; intros; try exact I; cbn [poly guard] in Hp, Hg; try discriminate; bsplit.
  (* the seven literals: estimate 0, and their values lie in the subfield of degree 0 *)
  1-7: apply (den_const_sf A env D DX ki _ hd_const h_ki); reflexivity.
  all: cbn [den estimate].
  (* where the value is sums, products, conjugates or derivatives of operand values at any components,
     the degree laws give the estimate from the induction hypotheses *)
  all: try solve [auto using hd_add2, hd_mul2, hd_ksum, hd_ksum_shape].
  - (* Term *) apply h_mono with (cdeg ti k id c); [apply h_env | apply cdeg_le].
  - (* Division: the divisor has degree 0 *)
    match goal with E : Nat.eqb _ 0 = true |- _ => apply Nat.eqb_eq in E; rename E into Eb end.
    rewrite Eb. cbn [add_degrees fold_right]. rewrite !Nat.add_0_r. apply h_divc; [auto|]. rewrite <- Eb. auto.
  - (* Power: a non-negative integer exponent *)
    destruct b; try discriminate. cbn [nonneg_int int_exponent power_rule] in *.
    match goal with E : (0 <=? z)%Z = true |- _ => rewrite E; apply Z.leb_le in E; rename E into Ez end.
    destruct z as [|p|p]; [| |lia].
    + rewrite Nat.mul_0_r. exact h_one.
    + rewrite Z2Nat.inj_pos. apply hd_kpown. auto.
  - (* Indexed *)
    unfold indexed_rule. destruct (indexed_walk fx ti a mi) as [d|] eqn:Ew; [|auto].
    match goal with E : indexed_ok _ _ _ _ = true |- _ => destruct (indexed_ok_Some _ _ _ Ew E) as (k & id & sh & cf & -> & Ef & Hle) end.
    rewrite (all_fixed_map rho mi cf Ef). cbn [den]. apply h_mono with (cdeg ti k id cf); [apply h_env | exact Hle].
  - (* ListTensor *)
    rewrite forallb_forall in Hp, Hg. rewrite Forall_forall in H. apply hd_ListTensor. intros x Hx c'. apply H; auto.
  - (* Grad *) destruct (split_last c) as [c' j]. apply h_D. auto.
  - (* RefGrad *) destruct (split_last c) as [c' j]. apply h_DX. auto.
  - (* NablaGrad *) destruct c as [|j c']; [apply hd_zero|]. apply h_D. auto.
  - (* Curl *)
    assert (HD : forall j c0, hasdeg (D j (DEN s rho a c0)) (reduce_degree quad (est a))) by (intros; apply h_D; auto).
    destruct (shape a) as [|[|[|[|?]]] [|? ?]]; destruct c as [|i [|? ?]]; try apply hd_zero;
      try (apply hd_sub; apply HD).
    destruct (Nat.eqb i 0); [apply HD | apply h_opp, HD].
  - (* Cross *) destruct c as [|i [|i' c']]; try apply hd_zero. apply hd_sub; apply hd_mul2; auto.
Qed.

Theorem C18_sound_partial : forall e, poly quad ti fx e = true -> guard ti fx e = true ->
  forall s rho c, hasdeg (DEN s rho e c) (est e).
Proof. exact (proj1 sound_all). Qed.

(* every Term under an Indexed carries the shape recorded for the terminal *)
Fixpoint shapes_ok (e : expr) : bool :=
  match e with
  | Indexed (Term k id sh) _ => if list_eq_dec Nat.eq_dec sh (t_shape (ti k id)) then true else false
  | Zero _ _ | IntV _ | RealV _ _ | CplxV _ _ _ _ | RatV _ _ | Identity _ | PermSym _
  | Term _ _ _ => true
  | Sum a b | Product a b | Division a b | Power a b | MinV a b | MaxV a b | Atan2 a b
  | Bessel _ a b | Outer a b | Inner a b | Dot a b | Cross a b => shapes_ok a && shapes_ok b
  | Indexed a _ => shapes_ok a
  | Abs a | Conj a | Real a | Imag a | IndexSum a _ _ | ComponentTensor a _
  | Math _ a | Vari a _ | Restricted _ a | Grad a _ | RefGrad a _ | Div a _ | NablaGrad a _
  | NablaDiv a _ | Curl a | RefValue a _ | Transposed a
  | Perp a | Trace a | Determinant a | Inverse a | Cofactor a | Deviatoric a | Skew a | Sym a => shapes_ok a
  | ListTensor es => forallb shapes_ok es
  | Conditional _ t f => shapes_ok t && shapes_ok f
  end.

Lemma shapes_ok_Indexed a mi :
  shapes_ok (Indexed a mi) = true ->
  shapes_ok a = true /\ forall k id sh, a = Term k id sh -> sh = t_shape (ti k id).
Proof.
  destruct a; intros H; (split; [first [exact H|reflexivity]|]); try (intros ? ? ? [=]).
  subst. cbn [shapes_ok] in H. destruct (list_eq_dec Nat.eq_dec _ _); [assumption|discriminate].
Qed.

(* if [indexed] is right at every node, the guard holds for every expression *)
Lemma guard_from_ok :
  (forall a mi, (forall k id sh, a = Term k id sh -> sh = t_shape (ti k id)) -> indexed_ok ti fx a mi = true) ->
  forall e, shapes_ok e = true -> guard ti fx e = true.
Proof.
  intros Hok.
  enough (G : (forall e (Hs : shapes_ok e = true), guard ti fx e = true) /\ (forall c : cond, True)) by apply G.
  apply expr_cond_full_ind; intros; try exact I; cbn [guard]; try reflexivity.
  all: try (cbn [shapes_ok] in Hs; bsplit; auto; fail).
  - (* Indexed *) apply shapes_ok_Indexed in Hs. destruct Hs as [Hs Hsh]. bsplit; auto.
  - (* ListTensor *)
    cbn [shapes_ok] in Hs. rewrite forallb_forall in *. rewrite Forall_forall in H. auto.
Qed.

(* the walk result dominates the owner's degree whenever the owner degrees are pointwise below the
   concatenation of the sub-elements' reference blocks *)
Definition dom_elem (el : elem) : bool :=
  Nat.eqb (length (e_pdeg el)) (length (ident_pdeg (e_subs el)))
  && forallb (fun p => Nat.leb (fst p) (snd p)) (combine (e_pdeg el) (ident_pdeg (e_subs el))).

(* the walk over the reference blocks reads the list [ident_pdeg] at the flat component *)
Lemma walk_nth_error subs : forall comp offset d,
  walk subs comp offset = Some d -> offset <= comp ->
  nth_error (ident_pdeg subs) (comp - offset) = Some d.
Proof.
  induction subs as [|[sz d0] t IH]; intros comp offset d H Hle; cbn [walk] in H; [discriminate|].
  unfold ident_pdeg. cbn [map concat fst snd].
  destruct (Nat.ltb comp (offset + sz)) eqn:E.
  - injection H as <-. apply Nat.ltb_lt in E.
    rewrite nth_error_app1 by (rewrite repeat_length; lia). apply nth_error_repeat. lia.
  - apply Nat.ltb_ge in E. rewrite nth_error_app2, repeat_length by (rewrite repeat_length; lia).
    rewrite <- Nat.sub_add_distr. apply IH; [exact H | exact E].
Qed.

Lemma combine_le_nth : forall (l1 l2 : list nat) n d dflt, length l1 = length l2 ->
  forallb (fun p => Nat.leb (fst p) (snd p)) (combine l1 l2) = true -> nth_error l2 n = Some d ->
  nth n l1 dflt <= d.
Proof.
  induction l1 as [|x l1 IH]; intros [|y l2] n d dflt HL HF Hn; try discriminate; [destruct n; discriminate|].
  cbn [combine forallb fst snd] in HF. apply andb_prop in HF. destruct HF as [H1 H2]. apply Nat.leb_le in H1.
  destruct n; cbn [nth nth_error] in *; [injection Hn as <-; exact H1|]. apply (IH l2); [exact (eq_add_S _ _ HL)|assumption..].
Qed.

Lemma walk_dom el comp d dflt : dom_elem el = true -> walk (e_subs el) comp 0 = Some d ->
  nth comp (e_pdeg el) dflt <= d.
Proof.
  intros Hd Hw. apply andb_prop in Hd. destruct Hd as [HL HF]. apply Nat.eqb_eq in HL.
  apply walk_nth_error in Hw; [|apply Nat.le_0_l]. rewrite Nat.sub_0_r in Hw.
  apply (combine_le_nth _ _ _ _ _ HL HF Hw).
Qed.

(* elements with identity component map (either variant of [indexed]) *)
Definition ident_cfg : Prop :=
  forall k id el, t_elem (ti k id) = Some el -> ident_elem el.
(* fx = true: elements on which [indexed] still walks (non-symmetric pullback,
   physical size = reference size) have owner degrees dominated by the reference blocks *)
Definition fixed_cfg : Prop :=
  forall k id el, t_elem (ti k id) = Some el -> e_sym el = false ->
    shape_size (t_shape (ti k id)) = e_refsize el -> dom_elem el = true.

Lemma ident_dom el : ident_elem el -> dom_elem el = true.
Proof.
  unfold ident_elem, dom_elem. intros ->. rewrite Nat.eqb_refl. cbn [andb].
  induction (ident_pdeg (e_subs el)) as [|x l IH]; cbn; [reflexivity|]. rewrite Nat.leb_refl. exact IH.
Qed.

Lemma indexed_ok_dom :
  (forall k id el, t_elem (ti k id) = Some el ->
     (fx = true -> e_sym el = false /\ shape_size (t_shape (ti k id)) = e_refsize el) -> dom_elem el = true) ->
  forall a mi, (forall k id sh, a = Term k id sh -> sh = t_shape (ti k id)) -> indexed_ok ti fx a mi = true.
Proof.
  intros Hdom a mi Hsh. unfold indexed_ok.
  destruct (indexed_walk fx ti a mi) as [d|] eqn:Ew; [|reflexivity].
  destruct (indexed_walk_Some _ _ _ Ew) as (k & id & sh & cf & el & -> & Ek & Ef & Eel & Hfx & Hw).
  rewrite Ef. pose proof (Hsh k id sh eq_refl) as ->.
  destruct (list_eq_dec Nat.eq_dec (t_shape (ti k id)) (t_shape (ti k id))) as [_|N]; [|contradiction].
  cbn [andb]. apply Nat.leb_le. unfold cdeg. rewrite Eel, Ek.
  apply walk_dom; [exact (Hdom k id el Eel Hfx)|exact Hw].
Qed.

(* the estimate is sound whenever the elements on which [indexed] walks satisfy [dom_elem] *)
Theorem C18_sound_dom :
  (forall k id el, t_elem (ti k id) = Some el ->
     (fx = true -> e_sym el = false /\ shape_size (t_shape (ti k id)) = e_refsize el) -> dom_elem el = true) ->
  forall e, poly quad ti fx e = true -> shapes_ok e = true ->
  forall s rho c, hasdeg (DEN s rho e c) (est e).
Proof.
  intros Hdom e Hp Hsh. apply C18_sound_partial; [exact Hp|].
  apply guard_from_ok; [apply indexed_ok_dom, Hdom|exact Hsh].
Qed.

Theorem C18_sound_identity : ident_cfg -> forall e, poly quad ti fx e = true -> shapes_ok e = true ->
  forall s rho c, hasdeg (DEN s rho e c) (est e).
Proof. intros Hid. apply C18_sound_dom. intros k id el E _. apply ident_dom, (Hid k id el E). Qed.

(* The FULL statement for the fixed variant of [indexed]: no guard on the expression. *)
Theorem C18_sound_fixed : fx = true -> fixed_cfg -> forall e, poly quad ti fx e = true -> shapes_ok e = true ->
  forall s rho c, hasdeg (DEN s rho e c) (est e).
Proof.
  intros Hfx Hfc. apply C18_sound_dom. intros k id el E H. destruct (H Hfx) as [H1 H2]. exact (Hfc k id el E H1 H2).
Qed.

End Sound.

(* Refutation of the unguarded statement at the level of the degree attribution: for the symmetric
   element with sub-elements (P1, P3, P1) on a 2x2 tensor (symmetry (0,0)->0, (0,1),(1,0)->1,
   (1,1)->2) the estimator attributes degree 1 to the component u[1,0], which is owned by the P3
   sub-element.  (C18_poly.v turns this into a concrete polynomial field of degree 3.) *)
Definition sym131 : elem :=
  {| e_subs := [(1, 1); (1, 3); (1, 1)]; e_pdeg := [1; 3; 3; 1]; e_sym := true; e_refsize := 3 |}.
Definition cfg131 : cfg := mkcfg [(0, 0, {| t_deg := 3; t_shape := [2; 2]; t_elem := Some sym131 |})].
Definition u10 : expr := Indexed (Term 0 0 [2; 2]) [Fixed 1; Fixed 0].

Theorem C18_indexed_refuted :
  exists ti e c, wf_cfg ti /\ poly false ti false e = true /\
    match e with Indexed (Term k id _) _ => estimate false ti false e < cdeg ti k id c | _ => False end.
Proof.
  exists cfg131, u10, [1; 0]. split; [|split].
  - apply wf_list_cfg. reflexivity.
  - reflexivity.
  - vm_compute. lia.
Qed.

(* the fixed variant attributes the whole element's degree to the witness *)
Example C18_fixed_witness : estimate false cfg131 true u10 = 3 /\ guard cfg131 true u10 = true.
Proof. split; reflexivity. Qed.

Print Assumptions C18_sound_partial.
Print Assumptions C18_sound_fixed.
Print Assumptions C18_sound_identity.
Print Assumptions C18_indexed_refuted.
