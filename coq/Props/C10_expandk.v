(* C10: expand_indices with the REPAIRED variable cache (fixes/C10-expand-variable-cache.diff):
   the cache key is (label, current component, current index values) instead of the label alone.

   [expandK]  the traversal with that cache threaded through;
   Theorem C10_expandK_expand0: for every expression whose Variable labels determine their bodies
   (UFL creates one Label per variable() call), the cached traversal computes exactly the pure
   expansion [expand0] -- so with the repaired cache the expansion theorem C10_expand_partial holds
   WITHOUT the no-clash guard (C10_expand_full).  The model key compares the valuation as the stack
   of bindings (finer than the dict of current values the code uses: the code can only hit more
   often, on contexts with the same current values). *)
Require Import UFLV.Core.Facts UFLV.Props.C10_model UFLV.Props.C10_lemmas UFLV.Props.C10_thm
               UFLV.Props.C10_expand.
Import ListNotations.

Definition kkey := (nat * (list nat * valn))%type.
Definition kstate := list (kkey * expr).
Fixpoint valn_eqb (a b : valn) : bool :=
  match a, b with
  | [], [] => true
  | (i, x) :: a', (j, y) :: b' => Nat.eqb i j && Nat.eqb x y && valn_eqb a' b'
  | _, _ => false
  end.
Definition key_eqb (k1 k2 : kkey) : bool :=
  Nat.eqb (fst k1) (fst k2) && list_eqb (fst (snd k1)) (fst (snd k2))
  && valn_eqb (snd (snd k1)) (snd (snd k2)).
Fixpoint klookup (st : kstate) (k : kkey) : option expr :=
  match st with [] => None | (k', x) :: t => if key_eqb k k' then Some x else klookup t k end.

Definition bindK {X Y} (o : option (X * kstate)) (f : X -> kstate -> option (Y * kstate)) :=
  match o with Some (x, st) => f x st | None => None end.
Fixpoint esumK (d : nat) (f : nat -> kstate -> option (expr * kstate)) (st : kstate) :
  option (expr * kstate) :=
  match d with
  | 0 => Some (Zero [] [], st)
  | S m => bindK (esumK m f st) (fun acc st1 => bindK (f m st1) (fun x st2 =>
             Some (match m with 0 => x | _ => Sum acc x end, st2)))
  end.
Section ExpK.
Variable expandK : valn -> list nat -> expr -> kstate -> option (expr * kstate).
Fixpoint cexpandK (v : valn) (cn : cond) (st : kstate) : option (cond * kstate) :=
  match cn with
  | Cmp op a b => bindK (expandK v [] a st) (fun a' st1 => bindK (expandK v [] b st1) (fun b' st2 =>
                    Some (Cmp op a' b', st2)))
  | AndC a b => bindK (cexpandK v a st) (fun a' st1 => bindK (cexpandK v b st1) (fun b' st2 =>
                    Some (AndC a' b', st2)))
  | OrC a b => bindK (cexpandK v a st) (fun a' st1 => bindK (cexpandK v b st1) (fun b' st2 =>
                    Some (OrC a' b', st2)))
  | NotC a => bindK (cexpandK v a st) (fun a' st1 => Some (NotC a', st1))
  end.
End ExpK.
Definition retK (st : kstate) (o : option expr) : option (expr * kstate) :=
  match o with Some e => Some (e, st) | None => None end.

Fixpoint expandK (v : valn) (c : list nat) (e : expr) (st : kstate) {struct e} :
  option (expr * kstate) :=
  let un (C : expr -> expr) a := bindK (expandK v c a st) (fun a' st1 => Some (C a', st1)) in
  let bin (C : expr -> expr -> expr) a b :=
    bindK (expandK v c a st) (fun a' st1 => bindK (expandK v c b st1) (fun b' st2 => Some (C a' b', st2))) in
  match e with
  | Zero sh _ => retK st (if Nat.eqb (length sh) (length c) then Some (Zero [] []) else None)
  | IntV _ | RealV _ _ | CplxV _ _ _ _ | RatV _ _ => retK st (match c with [] => Some e | _ => None end)
  | Identity n => retK st (at_comp e [n; n] c)
  | PermSym n => retK st (at_comp e (repeat n n) c)
  | Term _ _ sh => retK st (at_comp e sh c)
  | Sum a b => bin Sum a b
  | Product a b => bin Product a b
  | Division a b => match c with [] => bin Division a b | _ => None end
  | Power a b => if is_lit b then un (fun a' => Power a' b) a else bin Power a b
  | Abs a => un Abs a | Conj a => un Conj a | Real a => un Real a | Imag a => un Imag a
  | Math g a => un (Math g) a
  | MinV a b => bin MinV a b | MaxV a b => bin MaxV a b | Atan2 a b => bin Atan2 a b
  | Bessel k a b => bin (Bessel k) a b
  | Restricted p a => un (Restricted p) a
  | Vari a l =>
      match klookup st (l, (c, v)) with
      | Some x => Some (x, st)
      | None => bindK (expandK v c a st) (fun a' st1 =>
                  let x := Vari a' l in Some (x, ((l, (c, v)), x) :: st1))
      end
  | Indexed a mi => match mi_vals v mi with Some c' => expandK v c' a st | None => None end
  | IndexSum a i d => esumK d (fun k st1 => expandK ((i, k) :: v) c a st1) st
  | ComponentTensor a ix =>
      if Nat.eqb (length ix) (length c) then expandK (push_all v ix c) [] a st else None
  | ListTensor es =>
      match c with
      | [] => None
      | k :: c' =>
          (fix pick (l : list expr) (n : nat) {struct l} : option (expr * kstate) :=
             match l, n with
             | [], _ => None
             | x :: _, 0 => expandK v c' x st
             | _ :: t, S n' => pick t n'
             end) es k
      end
  | Conditional cn t f =>
      bindK (cexpandK expandK v cn st) (fun cn' st1 => bindK (expandK v c t st1) (fun t' st2 =>
        bindK (expandK v c f st2) (fun f' st3 => Some (Conditional cn' t' f', st3))))
  | Grad a g => retK st (match dv a with [] => at_comp e (shape a ++ [g]) c | _ => None end)
  | _ => None
  end.

Definition expand_indices_k (e : expr) : option expr :=
  match expandK [] [] e [] with Some (x, _) => Some x | None => None end.

(* ---- the Variable nodes of an expression, with their bodies ---- *)
Fixpoint vars (e : expr) : list (nat * expr) :=
  match e with
  | Vari a l => (l, a) :: vars a
  | _ => efold (@app (nat * expr)) [] vars e
  end.
Definition agree (f : nat -> option expr) (e : expr) : Prop :=
  forall l a, In (l, a) (vars e) -> f l = Some a.
(* every entry of the cache is the pure expansion of the body of its variable in its context *)
Definition inv (f : nat -> option expr) (st : kstate) : Prop :=
  forall l c v x, In ((l, (c, v)), x) st ->
    exists a a', f l = Some a /\ expand0 v c a = Some a' /\ x = Vari a' l.

(* the cached computation K returns what the pure computation p returns and keeps the cache sound *)
Definition refines (f : nat -> option expr) {X} (K : kstate -> option (X * kstate)) (p : option X) : Prop :=
  forall st x st', inv f st -> K st = Some (x, st') -> p = Some x /\ inv f st'.

Lemma refines_unit f {X} (x : X) : refines f (fun st => Some (x, st)) (Some x).
Proof. intros st y st' I H. injection H as <- <-. auto. Qed.
Lemma refines_none f {X} (p : option X) : refines f (fun _ => None) p.
Proof. intros st x st' _ H. discriminate H. Qed.
Lemma refines_retK f o : refines f (fun st => retK st o) o.
Proof. destruct o; [apply refines_unit|apply refines_none]. Qed.
Lemma refines_bind f {X Y} K p (G : X -> kstate -> option (Y * kstate)) g :
  refines f K p -> (forall x, refines f (G x) (g x)) -> refines f (fun st => bindK (K st) G) (bind p g).
Proof.
  intros HK HG st y st' I H. destruct (K st) as [[x st1]|] eqn:E; [|discriminate H].
  destruct (HK st x st1 I E) as [-> I1]. apply (HG x st1 y st' I1 H).
Qed.

Lemma esumK_refines f d G g : (forall k, refines f (G k) (g k)) -> refines f (esumK d G) (esum d g).
Proof.
  intros H. induction d as [|m IH]; cbn [esumK esum]; [apply refines_unit|].
  apply refines_bind; [exact IH|]. intros acc. apply refines_bind; [apply H|]. intros x. apply refines_unit.
Qed.

Lemma cexpandK_refines f v cn :
  (forall a, In a (cexprs cn []) -> refines f (expandK v [] a) (expand0 v [] a)) ->
  refines f (cexpandK expandK v cn) (cexpand0 expand0 v cn).
Proof.
  induction cn; intros H; cbn [cexpandK cexpand0 cexprs] in *.
  2,3: apply refines_bind; [apply IHcn1; intros a Ha; apply H; rewrite cexprs_app; apply in_or_app; auto|];
    intros c1; apply refines_bind; [apply IHcn2; intros a Ha; apply H; rewrite cexprs_app; apply in_or_app; auto|];
    intros c2; apply refines_unit.
  - apply refines_bind; [apply H; cbn; auto|]. intros a'. apply refines_bind; [apply H; cbn; auto|].
    intros b'. apply refines_unit.
  - apply refines_bind; [apply IHcn, H|]. intros c1. apply refines_unit.
Qed.

Lemma expandK_ListTensor v k c es st :
  expandK v (k :: c) (ListTensor es) st =
  match nth_error es k with Some x => expandK v c x st | None => None end.
Proof. cbn [expandK]. revert k; induction es as [|x t IH]; intros [|k]; try reflexivity. apply IH. Qed.

Lemma agree_child f e a : agree f e -> In a (children e) -> agree f a.
Proof.
  intros H Ha l x Hx. apply H.
  assert (Hf : In (l, x) (efold (@app _) [] vars e))
    by (rewrite efold_app; apply in_flat_map; exists a; auto).
  destruct e; try exact Hf. cbn in Hf. rewrite app_nil_r in Hf. right. exact Hf.
Qed.

Lemma list_eqb_eq a b : list_eqb a b = true -> a = b.
Proof.
  revert b; induction a as [|x a IH]; intros [|y b] H; cbn in H; try discriminate; [reflexivity|].
  bsplit. apply Nat.eqb_eq in H. f_equal; auto.
Qed.
Lemma valn_eqb_eq a b : valn_eqb a b = true -> a = b.
Proof.
  revert b; induction a as [|[i x] a IH]; intros [|[j y] b] H; cbn in H; try discriminate; [reflexivity|].
  bsplit. apply Nat.eqb_eq in H. apply Nat.eqb_eq in H1. f_equal; [congruence|auto].
Qed.
Lemma klookup_in st k x : klookup st k = Some x -> In (k, x) st.
Proof.
  induction st as [|[k' y] t IH]; cbn; [discriminate|].
  destruct (key_eqb k k') eqn:E; [|intros H; right; auto].
  intros H. injection H as <-. left. unfold key_eqb in E. bsplit.
  apply Nat.eqb_eq in H. apply list_eqb_eq in H1. apply valn_eqb_eq in H0.
  destruct k as [l [c v]], k' as [l' [c' v']]. cbn in *. congruence.
Qed.

Lemma expandK_refines f e : agree f e -> forall v c, refines f (expandK v c e) (expand0 v c e).
Proof.
  induction e as [e IH] using children_ind. intros Hag v c.
  assert (IH' : forall a, In a (children e) -> forall v c, refines f (expandK v c a) (expand0 v c a))
    by (intros a Ha; apply (IH a Ha), (agree_child f e a Hag Ha)).
  clear IH. destruct e; cbn [expandK expand0]; try apply refines_retK; try apply refines_none.
  (* nodes that expand their operands in the same context *)
  all: try (repeat (apply refines_bind; [apply IH'; cbn; auto|intros ?]); apply refines_unit).
  - (* Division *)
    destruct c; [|apply refines_none].
    repeat (apply refines_bind; [apply IH'; cbn; auto|intros ?]); apply refines_unit.
  - (* Power *)
    destruct (is_lit e2); repeat (apply refines_bind; [apply IH'; cbn; auto|intros ?]); apply refines_unit.
  - (* Indexed *) destruct (mi_vals v mi); [apply IH'; left; reflexivity|apply refines_none].
  - (* IndexSum *) apply esumK_refines. intros k. apply IH'. left; reflexivity.
  - (* ComponentTensor *)
    destruct (Nat.eqb (length ix) (length c)); [apply IH'; left; reflexivity|apply refines_none].
  - (* ListTensor *)
    destruct c as [|k c]; [apply refines_none|]. intros st x st' I H.
    change (expandK v (k :: c) (ListTensor es) st = Some (x, st')) in H. rewrite expandK_ListTensor in H.
    change (expand0 v (k :: c) (ListTensor es) = Some x /\ inv f st'). rewrite expand0_ListTensor.
    destruct (nth_error es k) as [y|] eqn:En; [|discriminate H].
    apply (IH' y (nth_error_In _ _ En) v c st x st' I H).
  - (* Conditional *)
    cbn [children] in IH'. rewrite cexprs_app in IH'. setoid_rewrite in_app_iff in IH'.
    apply refines_bind; [apply cexpandK_refines; intros a Ha; apply IH'; left; exact Ha|]. intros cn'.
    repeat (apply refines_bind; [apply IH'; cbn; auto|intros ?]); apply refines_unit.
  - (* Vari: a cache hit returns the stored expansion, a miss stores the new one *)
    intros st x st' I H. cbn beta in H. destruct (klookup st (label, (c, v))) as [y|] eqn:El.
    + injection H as <- <-. apply klookup_in in El. destruct (I _ _ _ _ El) as (a & a' & Hf & Ha & ->).
      rewrite (Hag label e (or_introl eq_refl)) in Hf. injection Hf as <-.
      split; [unfold bind; rewrite Ha; reflexivity|exact I].
    + destruct (expandK v c e st) as [[a' st1]|] eqn:E; [|discriminate H]. injection H as <- <-.
      destruct (IH' e (or_introl eq_refl) v c st a' st1 I E) as [X I1].
      split; [unfold bind; rewrite X; reflexivity|].
      intros l0 c1 v1 x0 [Hin|Hin]; [|apply (I1 l0 c1 v1 x0 Hin)].
      injection Hin as <- <- <- <-. exists e, a'. repeat split; [apply Hag; left; reflexivity|exact X].
Qed.

Theorem C10_expandK_expand0 f e e' : agree f e -> expand_indices_k e = Some e' -> expand0 [] [] e = Some e'.
Proof.
  unfold expand_indices_k. intros Hag H.
  destruct (expandK [] [] e []) as [[x st]|] eqn:E; [|discriminate]. injection H as <-.
  apply (expandK_refines f e Hag [] [] [] x st); [|exact E]. intros l c v y [].
Qed.

Section Full.
Variable A : ualg.
Variable env : side -> nat -> nat -> list nat -> A.
Variables D DX : nat -> A -> A.
Variable ki : A.
(* with the repaired cache, expand_indices preserves the value of every closed scalar expression of
   the fragment whose labels determine their variables -- no guard on how variables are used *)
Theorem C10_expand_full f e e' : agree f e -> rk e 0 = true -> expand_indices_k e = Some e' ->
  forall s rho', @den A env D DX ki s rho' e' [] = @den A env D DX ki s (rho_of []) e [].
Proof.
  intros Hag Hr H. apply (C10_expand_partial A env D DX ki e [] [] e'); [|exact Hr].
  apply (C10_expandK_expand0 f e e' Hag H).
Qed.
End Full.

Print Assumptions C10_expandK_expand0.
Print Assumptions C10_expand_full.
