(* C19 - the four post-order traversals of ufl/corealg/traversal.py as one fuelled stack machine
   (parameters: operands reversed or not, `visited` set used or not, cut-off predicate on labels),
   a structural specification [Spec] of what visiting a node yields, the proof that the machine
   computes it for ALL trees within fuel 2*size+1, and the properties of the unique traversals. *)
Require Import List Arith Lia Bool.
Require Import UFLV.Props.C19_tree.
Import ListNotations.

Section Post.
Variable rev_ops : bool.          (* deps = list(reversed(ufl_operands)) or list(ufl_operands) *)
Variable uniq : bool.             (* `dep not in visited` tested or not *)
Variable cut : nat -> bool.       (* cutofftypes[expr._ufl_typecode_] *)

Definition dlist (t : tree) : list tree := if rev_ops then rev (ops t) else ops t.
Definition deps_of (t : tree) : list (option tree) := map Some (dlist t).
Definition seen (vis : list tree) (d : tree) : bool := uniq && mem d vis.

(* `for i, dep in enumerate(deps): if dep is not None [and dep not in visited]: ... deps[i] = None; break` *)
Fixpoint scan (vis : list tree) (deps : list (option tree)) : option (tree * list (option tree)) :=
  match deps with
  | [] => None
  | None :: r => match scan vis r with Some (d, r') => Some (d, None :: r') | None => None end
  | Some d :: r =>
      if seen vis d
      then match scan vis r with Some (d', r') => Some (d', Some d :: r') | None => None end
      else Some (d, None :: r)
  end.

Record st := mk { lifo : list (tree * list (option tree)); vis : list tree; out : list tree }.

(* one iteration of `while lifo:`; `out` is kept reversed (latest first) *)
Definition step (s : st) : option st :=
  match lifo s with
  | [] => None
  | (e, deps) :: rest =>
      if cut (label e) then Some (mk rest (e :: vis s) (e :: out s))
      else match scan (vis s) deps with
           | Some (d, deps') => Some (mk ((d, deps_of d) :: (e, deps') :: rest) (vis s) (out s))
           | None => Some (mk rest (e :: vis s) (e :: out s))
           end
  end.

Fixpoint run (fuel : nat) (s : st) : option (list tree * list tree) :=
  match fuel with
  | 0 => None
  | S f => match step s with
           | None => Some (rev (out s), vis s)
           | Some s' => run f s'
           end
  end.

Lemma In_dlist : forall c t, In c (dlist t) <-> In c (ops t).
Proof. intros. unfold dlist. destruct rev_ops; [symmetry; apply in_rev | tauto]. Qed.

Lemma size_dlist : forall t, size t = S (list_sum (map size (dlist t))).
Proof.
  intros [l cs]. unfold dlist. destruct rev_ops; [|reflexivity].
  simpl ops. rewrite map_rev, list_sum_rev. reflexivity.
Qed.

(* [Spec t v o]: the machine, started on node t with visited set v, yields the list o and ends with
   visited set [rev o ++ v]; [SpecL ds v o]: the same for the remaining operands ds of a node. *)
Inductive Spec : tree -> list tree -> list tree -> Prop :=
| Spec_cut t v : cut (label t) = true -> Spec t v [t]
| Spec_node t v o : cut (label t) = false -> SpecL (dlist t) v o -> Spec t v (o ++ [t])
with SpecL : list tree -> list tree -> list tree -> Prop :=
| SpecL_nil v : SpecL [] v []
| SpecL_seen d r v o : seen v d = true -> SpecL r v o -> SpecL (d :: r) v o
| SpecL_new d r v o1 o2 : seen v d = false -> Spec d v o1 -> SpecL r (rev o1 ++ v) o2 ->
    SpecL (d :: r) v (o1 ++ o2).

Scheme Spec_mind := Minimality for Spec Sort Prop
  with SpecL_mind := Minimality for SpecL Sort Prop.
Combined Scheme Spec_SpecL_ind from Spec_mind, SpecL_mind.

Lemma Spec_total : forall t v, exists o, Spec t v o.
Proof.
  induction t as [t IH] using tree_ops_ind. intros v.
  destruct (cut (label t)) eqn:Hcut; [exists [t]; constructor; exact Hcut|].
  assert (HL : forall ds, (forall d, In d ds -> In d (ops t)) -> forall v, exists o, SpecL ds v o).
  { induction ds as [|d r IHr]; intros Hin v0; [exists []; constructor|].
    destruct (seen v0 d) eqn:Hs.
    - destruct (IHr (fun x Hx => Hin x (or_intror Hx)) v0) as [o Ho]. exists o. constructor; assumption.
    - destruct (IH d (Hin d (or_introl eq_refl)) v0) as [o1 H1].
      destruct (IHr (fun x Hx => Hin x (or_intror Hx)) (rev o1 ++ v0)) as [o2 H2].
      exists (o1 ++ o2). constructor; assumption. }
  destruct (HL (dlist t) (fun d => proj1 (In_dlist d t)) v) as [o Ho].
  exists (o ++ [t]). constructor; assumption.
Qed.

Lemma Spec_root_last : forall t v o, Spec t v o -> exists o', o = o' ++ [t].
Proof. intros t v o H. destruct H; [exists []|exists o]; reflexivity. Qed.

Definition dead (vis : list tree) (o : option tree) : Prop :=
  match o with None => True | Some d => seen vis d = true end.

Lemma seen_mono : forall l vis d, seen vis d = true -> seen (l ++ vis) d = true.
Proof.
  unfold seen. intros l vis0 d H. destruct uniq; simpl in *; [|discriminate].
  apply mem_In. apply mem_In in H. apply in_or_app; auto.
Qed.

Lemma dead_mono : forall l vis pre, Forall (dead vis) pre -> Forall (dead (l ++ vis)) pre.
Proof.
  intros l vis0 pre H. eapply Forall_impl; [|exact H]. intros [d|]; simpl; auto. apply seen_mono.
Qed.

Lemma scan_dead : forall vis pre r, Forall (dead vis) pre ->
  scan vis (pre ++ r) = match scan vis r with Some (d, r') => Some (d, pre ++ r') | None => None end.
Proof.
  intros vis0 pre r H. induction H as [|x pre Hx H IH]; simpl.
  - destruct (scan vis0 r) as [[d r']|]; reflexivity.
  - destruct x as [d|]; simpl in Hx.
    + rewrite Hx, IH. destruct (scan vis0 r) as [[d' r']|]; reflexivity.
    + rewrite IH. destruct (scan vis0 r) as [[d' r']|]; reflexivity.
Qed.

(* the three moves of [step] *)
Lemma step_cut : forall e deps rest v o, cut (label e) = true ->
  step (mk ((e, deps) :: rest) v o) = Some (mk rest (e :: v) (e :: o)).
Proof. intros. unfold step. simpl. rewrite H. reflexivity. Qed.

Lemma step_pop : forall e deps rest v o, cut (label e) = false -> Forall (dead v) deps ->
  step (mk ((e, deps) :: rest) v o) = Some (mk rest (e :: v) (e :: o)).
Proof.
  intros e deps rest v o Hcut Hd. unfold step. simpl. rewrite Hcut.
  rewrite <- (app_nil_r deps), (scan_dead v deps [] Hd). reflexivity.
Qed.

Lemma step_push : forall e pre d r rest v o, cut (label e) = false -> Forall (dead v) pre ->
  seen v d = false ->
  step (mk ((e, pre ++ Some d :: r) :: rest) v o)
  = Some (mk ((d, deps_of d) :: (e, pre ++ None :: r) :: rest) v o).
Proof.
  intros e pre d r rest v o Hcut Hd Hs. unfold step. simpl. rewrite Hcut, (scan_dead v pre _ Hd).
  simpl. rewrite Hs. reflexivity.
Qed.

Lemma run_step : forall fuel s s', step s = Some s' -> run (S fuel) s = run fuel s'.
Proof. intros fuel s s' H. simpl. rewrite H. reflexivity. Qed.

(* Visiting t takes k < 2*size t iterations and leaves the rest of the stack alone; working off the
   remaining operands ds of e and then yielding e takes at most 2*(sum of their sizes)+1. *)
Lemma run_Spec_gen :
  (forall t v o, Spec t v o -> forall rest out0, exists k, k + 1 <= 2 * size t /\
     forall fuel, run (k + fuel) (mk ((t, deps_of t) :: rest) v out0)
                = run fuel (mk rest (rev o ++ v) (rev o ++ out0))) /\
  (forall ds v o, SpecL ds v o -> forall e pre rest out0, cut (label e) = false -> Forall (dead v) pre ->
     exists k, k <= 2 * list_sum (map size ds) + 1 /\
     forall fuel, run (k + fuel) (mk ((e, pre ++ map Some ds) :: rest) v out0)
                = run fuel (mk rest (e :: rev o ++ v) (e :: rev o ++ out0))).
Proof.
  apply Spec_SpecL_ind.
  - intros t v Hcut rest out0. exists 1. pose proof (size_pos t). split; [lia|].
    intros fuel. apply run_step, step_cut, Hcut.
  - intros t v o Hcut _ IH rest out0.
    destruct (IH t [] rest out0 Hcut (Forall_nil _)) as (k & Hk & Hrun).
    exists k. rewrite (size_dlist t). split; [lia|].
    intros fuel. rewrite rev_app_distr. apply Hrun.
  - intros v e pre rest out0 Hcut Hd. exists 1. split; [simpl; lia|].
    intros fuel. apply run_step, step_pop; [exact Hcut|]. simpl. rewrite app_nil_r. exact Hd.
  - intros d r v o Hs _ IH e pre rest out0 Hcut Hd.
    destruct (IH e (pre ++ [Some d]) rest out0 Hcut) as (k & Hk & Hrun).
    { apply Forall_app. split; [exact Hd|]. constructor; [exact Hs|constructor]. }
    exists k. split; [simpl; lia|].
    intros fuel. rewrite <- Hrun, <- app_assoc. reflexivity.
  - intros d r v o1 o2 Hs _ IH1 _ IH2 e pre rest out0 Hcut Hd.
    destruct (IH1 ((e, pre ++ None :: map Some r) :: rest) out0) as (k1 & Hk1 & Hrun1).
    destruct (IH2 e (pre ++ [None]) rest (rev o1 ++ out0) Hcut) as (k2 & Hk2 & Hrun2).
    { apply Forall_app. split; [apply dead_mono, Hd|]. constructor; [exact I|constructor]. }
    exists (S (k1 + k2)). split; [simpl; lia|].
    intros fuel. change (S (k1 + k2) + fuel) with (S (k1 + k2 + fuel)).
    rewrite (run_step _ _ _ (step_push e pre d (map Some r) rest v out0 Hcut Hd Hs)).
    rewrite <- Nat.add_assoc, Hrun1.
    replace (pre ++ None :: map Some r) with ((pre ++ [None]) ++ map Some r)
      by (rewrite <- app_assoc; reflexivity).
    rewrite Hrun2, rev_app_distr, !app_assoc. reflexivity.
Qed.

(* The fuel 2*size+1 never runs out. *)
Theorem run_Spec : forall t v o, Spec t v o -> forall fuel, 2 * size t + 1 <= fuel ->
  run fuel (mk [(t, deps_of t)] v []) = Some (o, rev o ++ v).
Proof.
  intros t v o H fuel Hf.
  destruct (proj1 run_Spec_gen t v o H [] []) as (k & Hk & Hrun).
  replace fuel with (k + S (fuel - k - 1)) by lia.
  rewrite Hrun. simpl. rewrite app_nil_r, rev_involutive. reflexivity.
Qed.

Fixpoint post_rec (t : tree) : list tree :=
  match t with
  | Node l cs => (if cut l then []
                  else concat (let m := map post_rec cs in if rev_ops then rev m else m)) ++ [t]
  end.

Lemma post_rec_unfold : forall t,
  post_rec t = (if cut (label t) then [] else flat_map post_rec (dlist t)) ++ [t].
Proof.
  intros [l cs]. unfold dlist. simpl. destruct rev_ops; simpl.
  - rewrite concat_rev_map. reflexivity.
  - rewrite flat_map_concat_map. reflexivity.
Qed.

Lemma Spec_plain : uniq = false ->
  (forall t v o, Spec t v o -> o = post_rec t) /\
  (forall ds v o, SpecL ds v o -> o = flat_map post_rec ds).
Proof.
  intros Hu. apply Spec_SpecL_ind.
  - intros t v Hcut. rewrite post_rec_unfold, Hcut. reflexivity.
  - intros t v o Hcut _ ->. rewrite post_rec_unfold, Hcut. reflexivity.
  - reflexivity.
  - intros d r v o Hs. unfold seen in Hs. rewrite Hu in Hs. discriminate.
  - intros d r v o1 o2 _ _ -> _ ->. reflexivity.
Qed.

(* nodes reachable from t without passing through a cut-off node *)
Fixpoint creach (t : tree) : list tree :=
  match t with Node l cs => t :: (if cut l then [] else concat (map creach cs)) end.

Lemma creach_self : forall t, In t (creach t).
Proof. destruct t; simpl; auto. Qed.

Lemma creach_child : forall x c t, cut (label t) = false -> In c (ops t) -> In x (creach c) -> In x (creach t).
Proof.
  intros x c [l cs] Hcut Hc Hx. simpl in *. rewrite Hcut. right. apply in_concat_map. eauto.
Qed.

Lemma creach_inv : forall x t, In x (creach t) ->
  x = t \/ (cut (label t) = false /\ exists c, In c (ops t) /\ In x (creach c)).
Proof.
  intros x [l cs]. simpl. intros [<-|H]; auto. right.
  destruct (cut l); [contradiction|]. split; auto. apply in_concat_map in H. exact H.
Qed.

Lemma creach_size : forall t x, In x (creach t) -> size x <= size t.
Proof.
  induction t as [t IH] using tree_ops_ind. intros x Hx. apply creach_inv in Hx.
  destruct Hx as [->|(_ & c & Hc & Hx)]; [lia|].
  pose proof (IH c Hc x Hx). pose proof (size_child c t Hc). lia.
Qed.

Lemma creach_nocut : (forall l, cut l = false) -> forall t, creach t = subterms t.
Proof.
  intros Hc. induction t using tree_ind2. simpl. rewrite Hc. f_equal. f_equal.
  apply map_ext_in. rewrite Forall_forall in H. exact H.
Qed.

(* a set that contains t and, with every node that is not cut off, its operands contains all of creach t *)
Lemma creach_closed : forall (S : tree -> Prop),
  (forall x, S x -> cut (label x) = false -> forall c, In c (ops x) -> S c) ->
  forall t, S t -> forall x, In x (creach t) -> S x.
Proof.
  intros S Hcl. induction t as [t IH] using tree_ops_ind. intros Ht x Hx.
  apply creach_inv in Hx. destruct Hx as [->|(Hcut & c & Hc & Hx)]; [exact Ht|].
  apply (IH c Hc); [|exact Hx]. apply (Hcl t); assumption.
Qed.

(* when x is yielded, all its operands are already in the visited set *)
Fixpoint ordered (vis : list tree) (o : list tree) : Prop :=
  match o with
  | [] => True
  | x :: r => (cut (label x) = false -> forall c, In c (ops x) -> In c vis) /\ ordered (x :: vis) r
  end.

Lemma ordered_incl : forall o v v', ordered v o -> (forall x, In x v -> In x v') -> ordered v' o.
Proof.
  induction o; simpl; intros; auto. destruct H as [H1 H2]. split.
  - intros Hc c Hin. auto.
  - eapply IHo; eauto. simpl. intros x [->|Hx]; auto.
Qed.

Lemma ordered_app : forall a b v, ordered v (a ++ b) <-> ordered v a /\ ordered (rev a ++ v) b.
Proof.
  induction a; simpl; intros; [split; [intros H; split; [exact I|exact H]|intros [_ H]; exact H]|].
  rewrite IHa, <- app_assoc. simpl. symmetry. apply and_assoc.
Qed.

Lemma ordered_split : forall v o1 x o2, ordered v (o1 ++ x :: o2) ->
  cut (label x) = false -> forall c, In c (ops x) -> In c o1 \/ In c v.
Proof.
  intros v o1 x o2 H Hcut c Hc. apply ordered_app in H. destruct H as [_ [H _]].
  specialize (H Hcut c Hc). apply in_app_or in H.
  destruct H as [H|H]; [left; apply in_rev; exact H|right; exact H].
Qed.

Section Unique.
Hypothesis Huniq : uniq = true.

Lemma seen_true : forall vis d, seen vis d = true <-> In d vis.
Proof. intros. unfold seen. rewrite Huniq. simpl. apply mem_In. Qed.
Lemma seen_false : forall vis d, seen vis d = false <-> ~ In d vis.
Proof. intros. unfold seen. rewrite Huniq. simpl. apply mem_nIn. Qed.

(* nothing already visited is yielded again (the root itself is not tested) *)
Lemma Spec_fresh :
  (forall t v o, Spec t v o -> ~ In t v -> forall x, In x o -> ~ In x v) /\
  (forall ds v o, SpecL ds v o -> forall x, In x o -> ~ In x v).
Proof.
  apply Spec_SpecL_ind.
  - intros t v _ Ht x [<-|[]]. exact Ht.
  - intros t v o _ _ IH Ht x Hx. apply in_app_or in Hx. destruct Hx as [Hx|[<-|[]]]; auto.
  - intros v x [].
  - auto.
  - intros d r v o1 o2 Hs _ IH1 _ IH2 x Hx. apply in_app_or in Hx. destruct Hx as [Hx|Hx].
    + apply (IH1 (proj1 (seen_false v d) Hs) x Hx).
    + intros Hv. apply (IH2 x Hx). apply in_or_app. right. exact Hv.
Qed.

Lemma Spec_reach :
  (forall t v o, Spec t v o -> forall x, In x o -> In x (creach t)) /\
  (forall ds v o, SpecL ds v o -> forall x, In x o -> exists d, In d ds /\ In x (creach d)).
Proof.
  apply Spec_SpecL_ind.
  - intros t v _ x [<-|[]]. apply creach_self.
  - intros t v o Hcut _ IH x Hx. apply in_app_or in Hx. destruct Hx as [Hx|[<-|[]]]; [|apply creach_self].
    destruct (IH x Hx) as (d & Hd & Hxd). apply In_dlist in Hd. eapply creach_child; eassumption.
  - intros v x [].
  - intros d r v o _ _ IH x Hx. destruct (IH x Hx) as (d' & Hd' & Hx'). exists d'. simpl; auto.
  - intros d r v o1 o2 _ _ IH1 _ IH2 x Hx. apply in_app_or in Hx. destruct Hx as [Hx|Hx].
    + exists d. simpl; auto.
    + destruct (IH2 x Hx) as (d' & Hd' & Hx'). exists d'. simpl; auto.
Qed.

Lemma Spec_NoDup :
  (forall t v o, Spec t v o -> NoDup o) /\ (forall ds v o, SpecL ds v o -> NoDup o).
Proof.
  apply Spec_SpecL_ind.
  - intros. repeat constructor. simpl; tauto.
  - intros t v o _ HL IH. apply NoDup_app_intro; [exact IH|repeat constructor; simpl; tauto|].
    (* everything yielded below t is smaller than t *)
    intros x Hx [<-|[]]. destruct (proj2 Spec_reach _ _ _ HL t Hx) as (d & Hd & Hxd).
    apply In_dlist in Hd. pose proof (creach_size d t Hxd). pose proof (size_child d t Hd). lia.
  - constructor.
  - auto.
  - intros d r v o1 o2 _ _ IH1 HL IH2. apply NoDup_app_intro; [exact IH1|exact IH2|].
    intros x Hx1 Hx2. apply (proj2 Spec_fresh _ _ _ HL x Hx2). apply in_or_app. left. apply -> in_rev. exact Hx1.
Qed.

(* afterwards all the operands are visited, and every node was yielded after its operands *)
Lemma Spec_ordered :
  (forall t v o, Spec t v o -> ordered v o) /\
  (forall ds v o, SpecL ds v o -> (forall c, In c ds -> In c (rev o ++ v)) /\ ordered v o).
Proof.
  apply Spec_SpecL_ind.
  - intros t v Hcut. simpl. split; [congruence|exact I].
  - intros t v o _ _ [IHin IHo]. apply ordered_app. split; [exact IHo|]. simpl. split; [|exact I].
    intros _ c Hc. apply IHin, In_dlist, Hc.
  - intros v. split; [intros c []|exact I].
  - intros d r v o Hs _ [IHin IHo]. split; [|exact IHo].
    intros c [<-|Hc]; [|auto]. apply in_or_app. right. apply seen_true, Hs.
  - intros d r v o1 o2 _ H1 IH1 _ [IHin IHo]. split.
    + intros c Hc. rewrite rev_app_distr, <- app_assoc. destruct Hc as [<-|Hc]; [|auto].
      apply in_or_app. right. apply in_or_app. left. apply -> in_rev.
      destruct (Spec_root_last _ _ _ H1) as [o' ->]. apply in_or_app. right. simpl; auto.
    + apply ordered_app. split; assumption.
Qed.

(* The properties of a unique traversal of t started with an arbitrary visited set v0: no node twice,
   only nodes reachable outside cut-off subtrees, every node after those of its operands that were
   not visited before; and, when v0 is closed under operands except perhaps at t
   (unique_post_traversal adds the root before the loop), every reachable node is yielded or was
   visited before.  (The root comes last: [Spec_root_last].) *)
Theorem unique_props : forall t v0 o, Spec t v0 o ->
  NoDup o /\
  (forall x, In x o -> In x (creach t)) /\
  (forall o1 x o2, o = o1 ++ x :: o2 -> cut (label x) = false -> forall c, In c (ops x) -> In c o1 \/ In c v0) /\
  ((forall x, In x v0 -> x = t \/ (cut (label x) = false -> forall c, In c (ops x) -> In c v0)) ->
   forall x, In x (creach t) -> In x o \/ In x v0).
Proof.
  intros t v0 o H.
  assert (Hord : forall o1 x o2, o = o1 ++ x :: o2 -> cut (label x) = false ->
                 forall c, In c (ops x) -> In c o1 \/ In c v0).
  { intros o1 x o2 E. apply (ordered_split v0 o1 x o2). rewrite <- E. apply (proj1 Spec_ordered _ _ _ H). }
  split; [apply (proj1 Spec_NoDup _ _ _ H)|]. split; [apply (proj1 Spec_reach _ _ _ H)|]. split; [exact Hord|].
  intros Hv0.
  assert (Ho : forall x, In x o -> cut (label x) = false -> forall c, In c (ops x) -> In c o \/ In c v0).
  { intros x Hx Hcut c Hc. destruct (in_split _ _ Hx) as (o1 & o2 & E).
    destruct (Hord o1 x o2 E Hcut c Hc) as [Hc1|Hc1]; [left|right; exact Hc1].
    rewrite E. apply in_or_app. left. exact Hc1. }
  assert (Ht : In t o). { destruct (Spec_root_last _ _ _ H) as [o' ->]. apply in_or_app. right. simpl; auto. }
  apply (creach_closed (fun x => In x o \/ In x v0)); [|left; exact Ht].
  intros x [Hx|Hx] Hcut c Hc; [exact (Ho x Hx Hcut c Hc)|].
  destruct (Hv0 x Hx) as [->|Hcl]; [exact (Ho t Ht Hcut c Hc)|right; exact (Hcl Hcut c Hc)].
Qed.

End Unique.
End Post.
