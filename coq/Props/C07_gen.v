(* C07 - the tactic of the generated obligations coq/Gen/C07_t2_*.v (py/props/C07.py).

   An obligation is  interp -> re = id -> conj = id -> (non-zero premises) -> DEN lowered c = quantity c.
   Once both sides are computed, the lowered side is a rational expression over the terminals, the
   quantity one over the vertices V; the terminals are rewritten by [interp] and the identity is closed
   by ring/field.  The repeated parts are named while they are small:
   denominators first, then facet Jacobian entries, Jacobian entries, and last the arguments of the
   uninterpreted symbols (sqrt, abs, min, max).

   The generated files state everything over Section variables, so [c07_with] takes them as arguments,
   under the names of coqgen.HEADER and of the header py/props/C07.py prints, and hands the inner
   tactics what they need, already applied. *)
Require Import UFLV.Core.Tac.

(* Uninterpreted symbols are handled innermost-first: an application whose arguments contain no
   further such symbol is a "leaf".  A leaf whose arguments are ring/field-equal to those of a leaf
   met before is identified with it, otherwise it becomes a new atom: each pair is compared once, and
   ring/field only ever see small polynomials. *)
Ltac is_leaf fn abs min_ max_ X :=
  lazymatch X with
  | context [fn _ _] => fail
  | context [abs _] => fail
  | context [min_ _ _] => fail
  | context [max_ _ _] => fail
  | _ => idtac
  end.
Ltac arg_eq char0 := first [ ring | field; nz_solve char0 ].
(* two sums of squares agree when their terms do: each term of Y is replaced, everywhere in the goal,
   by the corresponding term of X (one small problem per component of a vector instead of one for its
   norm, and the components are then equal where they stand alone, too) *)
Ltac same_sq add mul char0 Y X :=
  lazymatch Y with
  | add ?p (mul ?a ?a) =>
      lazymatch X with
      | add ?q (mul ?b ?b) =>
          first [ constr_eq a b | replace a with b by (arg_eq char0) ]; same_sq add mul char0 p q
      end
  | _ => constr_eq Y X
  end.
Ltac same add mul char0 Y X :=
  first [ constr_eq Y X | same_sq add mul char0 Y X | replace Y with X by (arg_eq char0) ].
Ltac abs_step fn abs min_ max_ leaf sm :=
  match goal with
  | |- context [fn ?f ?Y] => leaf Y;
      first [ match goal with a := fn f ?X |- _ => sm Y X; change (fn f X) with a end
            | let a := fresh "a" in set (a := fn f Y) ]
  | |- context [abs ?Y] => leaf Y;
      first [ match goal with a := abs ?X |- _ => sm Y X; change (abs X) with a end
            | let a := fresh "a" in set (a := abs Y) ]
  | |- context [min_ ?Y1 ?Y2] => leaf Y1; leaf Y2;
      first [ match goal with a := min_ ?X1 ?X2 |- _ => sm Y1 X1; sm Y2 X2; change (min_ X1 X2) with a end
            | let a := fresh "a" in set (a := min_ Y1 Y2) ]
  | |- context [max_ ?Y1 ?Y2] => leaf Y1; leaf Y2;
      first [ match goal with a := max_ ?X1 ?X2 |- _ => sm Y1 X1; sm Y2 X2; change (max_ X1 X2) with a end
            | let a := fresh "a" in set (a := max_ Y1 Y2) ]
  end.
Ltac opaque := repeat match goal with a := _ |- _ => clearbody a end.
(* the non-zero hypotheses are kept (field needs them while leaves are compared) and also put into the
   goal, where their leaves are abstracted with the others *)
Ltac nz_dup z0 :=
  match goal with |- (_ <> z0) -> _ => let H := fresh in intro H; nz_dup z0; generalize H | _ => idtac end.
Ltac close z0 char0 step :=
  repeat match goal with H : _ <> z0 |- _ => revert H end; nz_dup z0; repeat step; opaque; intros;
  repeat match goal with |- _ /\ _ => split end;
  first [ reflexivity | ring | field; nz_solve char0 ].

(* Denominators are named before anything else is done, so that every later step works on small terms
   (a determinant occurs many times in a goal).  A polynomial that a hypothesis says is non-zero
   gets a name d, a lowered denominator (it mentions terminals) a name dl; the defining equations
   (d = D -> dl = Y -> ...) stay in the goal while the terminals are rewritten and the Jacobian
   entries are named. *)
Ltac name_dens env z0 div poly :=
  repeat match goal with
  | H : ?D <> z0 |- _ =>
      first [ is_var D; fail 1 | poly D ];
      let d := fresh "d" in let E := fresh "Ed" in remember D as d eqn:E in *; revert E
  end;
  repeat match goal with
  | |- context [div _ ?Y] =>
      lazymatch Y with context [env _ _ _ _] => poly Y end;
      let d := fresh "dl" in let E := fresh "Ed" in remember Y as d eqn:E; revert E
  end.
(* a lowered denominator is identified (ring) with the non-zero polynomial of a hypothesis; one that
   no hypothesis speaks of is written out again *)
Ltac merge_dens z0 :=
  repeat match goal with
  | E : ?dl = _, E' : ?d = _, _ : ?d <> z0 |- _ =>
      is_var dl; lazymatch dl with d => fail | _ => idtac end;
      let Q := fresh in assert (Q : dl = d) by (rewrite E, E'; ring); clear E; subst dl
  end;
  repeat match goal with
  | E : ?d = _ |- _ => is_var d; lazymatch goal with _ : d <> z0 |- _ => fail | _ => subst d end
  end.
(* the terminals are read through interp (H0, opened in the order of the fields of [interp], C07_spec.v), a
   terminal kind only if it occurs (a rewrite that finds nothing still walks through the goal); re and conj
   are the identity (H1, H2) *)
Ltac terms env DX re conj H0 H1 H2 :=
  let rw := ltac:(fun k H => match goal with |- context [env _ k _ _] => repeat rewrite H | _ => idtac end) in
  destruct H0 as [HJ Hx Hx0 Hcfj Hcrj Hcev Hfev Hrn Hrcv Hrfv Hco];
  match goal with |- context [DX _ (env _ 10 _ _)] => repeat rewrite HJ | _ => idtac end;
  rw 10 Hx; rw 14 Hx0; rw 22 Hcfj; rw 23 Hcrj; rw 28 Hcev; rw 29 Hfev;
  rw 42 Hrn; rw 43 Hrcv; rw 44 Hrfv; rw 54 Hco;
  match goal with |- context [re _] => repeat rewrite H1 | _ => idtac end;
  match goal with |- context [conj _] => repeat rewrite H2 | _ => idtac end.
(* every difference of vertices is a difference of Jacobian entries v_(j+1) - v_0, and these become
   single atoms (jj): whenever the goal depends on the vertices only through J, the polynomials have the
   entries of J as atoms and not the vertex coordinates *)
Ltac absJ V sub :=
  repeat match goal with
  | |- context [sub (V (S ?a) ?i) (V (S ?b) ?i)] =>
      replace (sub (V (S a) i) (V (S b) i)) with (sub (sub (V (S a) i) (V 0 i)) (sub (V (S b) i) (V 0 i))) in * by ring
  end;
  repeat match goal with
  | |- context [sub (V (S ?j) ?i) (V 0 ?i)] =>
      let a := fresh "jj" in set (a := sub (V (S j) i) (V 0 i)) in *
  end.
(* a facet Jacobian entry sum_k J_ik cfj_kj is a linear form in the Jacobian entries whose coefficients
   are constants of the reference table (terminal kind 22): it is named while the terminals are
   rewritten and simplified (to one Jacobian entry, for the facets that contain vertex 0) as soon as
   they are *)
Ltac lin_form env z0 add mul T :=
  lazymatch T with
  | z0 => idtac
  | add ?p (mul ?a ?b) =>
      lazymatch constr:((a, b)) with (env _ 22 _ _, _) => idtac | (_, env _ 22 _ _) => idtac end;
      lin_form env z0 add mul p
  end.
Ltac name_lins add mul lin :=
  repeat match goal with
  | |- context [add ?p (mul ?a ?b)] =>
      lin (add p (mul a b));
      let x := fresh "lf" in let E := fresh "El" in remember (add p (mul a b)) as x eqn:E; symmetry in E
  end;
  repeat match goal with E : _ = ?x |- _ => is_var x; revert E end.
Ltac simp_lins :=
  repeat match goal with
  | |- _ = ?x -> _ => is_var x; let E := fresh in intro E; ring_simplify in E; subst x
  end.
Ltac forget := repeat match goal with E : ?d = _ |- _ => is_var d; clear E end; opaque.
Ltac recall_dens := repeat match goal with E : ?d = _ |- _ => is_var d; subst d end.
Ltac recall := recall_dens; repeat match goal with a := _ |- _ => subst a end.

(* The components of a tensor-valued quantity are proved together (the goal is their conjunction: the
   denominators and leaves are the same for all of them and are named and identified once) and projected
   out: [nth_conj k H] is the k-th conjunct of H. *)
Ltac nth_conj k H :=
  lazymatch k with O => first [ exact (proj1 H) | exact H ] | S ?j => nth_conj j (proj2 H) end.

(* [c07_with il ...]: with il = false the named denominators and Jacobian entries are opaque atoms when
   the goal is closed (the plain proof, everything written out, is the fallback); with il = true (the
   inverse laws K J = I, ...) the denominators are written out first, since the identity needs them *)
Ltac c07_with il env DX V z0 add mul sub div inv fn abs min_ max_ re conj char0 :=
  let leaf := ltac:(fun X => is_leaf fn abs min_ max_ X) in
  let poly := ltac:(fun X =>
    lazymatch X with context [div _ _] => fail | context [inv _] => fail | _ => leaf X end) in
  let sm := ltac:(fun Y X => same add mul char0 Y X) in
  let cl := ltac:(idtac; close z0 char0 ltac:(idtac; abs_step fn abs min_ max_ leaf sm)) in
  let H0 := fresh in let H1 := fresh in let H2 := fresh in
  intros H0 H1 H2; intros;
  repeat match goal with H : _ <> z0 |- _ => norm_hyp H; revert H end; intros;
  vm_compute; name_dens env z0 div poly; name_lins add mul ltac:(fun T => lin_form env z0 add mul T);
  terms env DX re conj H0 H1 H2; vm_compute; absJ V sub; simp_lins; intros; merge_dens z0;
  lazymatch il with
  | false => first [ reflexivity | solve [ forget; cl ] | recall; cl ]
  | true => first [ reflexivity | solve [ recall_dens; forget; cl ] | recall; cl ]
  end.
