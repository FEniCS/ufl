(* C05 - refutations: the guards of the *_partial theorems of Props/C05_model.v cannot be dropped.
   The models take the repair flags fx_is / fx_ct / fx_lt and fx_cn / fx_at / fx_cs (Props/C05_model.v);
   the structural correspondence of py/props/C05.py compares them, at the flags it detects on the
   implementation, with the implementation on these very witnesses.  The refutations are about the tree
   without the repair in question (flag false): on the witnesses below the model -- like that tree --
   returns an expression that differs from the requested operation in shape, free indices or value, or
   fails on a well-formed request.  The *_repaired examples show that with the flags set -- the
   behaviour of the fix commits, all of which /repo contains -- the same witnesses yield the raw
   request.  The fuel 10 of [mk_indexed] exceeds the depth of every witness. *)
Require Import UFLV.Core.Den.
Require Import UFLV.Props.C05_model.

Definition T3 : expr := Term 0 0 [2; 2; 2].
Definition M2 : expr := Term 0 1 [2; 2].
Definition V2 : expr := Term 0 2 [2].

(* 1. ListTensor.__new__ "[v[0,:], v[1,:]] -> v" with permuted / partial component-tensor indices *)
Definition row (k : nat) (jj : list (nat * nat)) : expr :=
  ComponentTensor (Indexed T3 [Fixed k; Free 0; Free 1]) jj.
Definition lt_perm : list expr := [row 0 [(1, 2); (0, 2)]; row 1 [(1, 2); (0, 2)]].
Definition lt_part : list expr := [row 0 [(0, 2)]; row 1 [(0, 2)]].

Theorem C05_list_tensor_ct_refuted_shape :
  exists es e, mk_list_tensor false es = Some e /\ lt_ct_exact es = false /\
               shape e <> shape (ListTensor es) /\ fidx e <> fidx (ListTensor es).
Proof. exists lt_part, T3. repeat split; try reflexivity; discriminate. Qed.

Section Values.
Variable A : ualg.
Add Field AfC05f : (kfield A).
Ltac nrm H := cbv -[K k0 k1 kadd kmul ksub kopp kdiv kinv] in H.

Theorem C05_list_tensor_ct_refuted_value :
  exists es e, mk_list_tensor false es = Some e /\ lt_ct_exact es = false /\
               shape e = shape (ListTensor es) /\ fidx e = fidx (ListTensor es) /\
    ~ (forall env D DX ki s rho c, @den A env D DX ki s rho e c = @den A env D DX ki s rho (ListTensor es) c).
Proof.
  exists lt_perm, T3. repeat split; try reflexivity.
  intros H.
  specialize (H (fun _ _ _ c => match c with [0; 0; 1] => k1 | _ => k0 end)
                (fun _ x => x) (fun _ x => x) k0 None (fun _ => 0) [0; 0; 1]).
  nrm H. exact (F_1_neq_0 (kfield A) H).
Qed.

(* 2. IndexSum._simplify_indexed: Indexed(IndexSum(as_tensor(M[i,k],(k,)), i), (i,)), i = 0, k = 1 *)
Definition is1 : expr := IndexSum (ComponentTensor (Indexed M2 [Free 0; Free 1]) [(1, 2)]) 0 2.

Theorem C05_indexed_index_sum_refuted :
  exists a mi e, mk_indexed le_any ff_none false false false 10 a mi = Some e /\
                 fidx e <> fidx (Indexed a mi).
Proof. exists is1, [Free 0], (IndexSum (Indexed M2 [Free 0; Free 0]) 0 2). split; [reflexivity|discriminate]. Qed.

Theorem C05_indexed_index_sum_refuted_value :
  exists a mi e, mk_indexed le_any ff_none false false false 10 a mi = Some e /\
    ~ (forall env D DX ki s rho, @den A env D DX ki s rho e [] = @den A env D DX ki s rho (Indexed a mi) []).
Proof.
  exists is1, [Free 0], (IndexSum (Indexed M2 [Free 0; Free 0]) 0 2). split; [reflexivity|].
  intros H.
  specialize (H (fun _ _ _ c => match c with [1; 0] => k1 | _ => k0 end)
                (fun _ x => x) (fun _ x => x) k0 None (fun _ => 0)).
  nrm H. apply (F_1_neq_0 (kfield A)).
  transitivity (ksub (kadd (kadd (k0 : A) k0) k1) (kadd k0 k0)); [ring|]. rewrite <- H. ring.
Qed.

End Values.

(* 3. ComponentTensor._simplify_indexed: as_tensor(L[m],(j,))[0], L = ListTensor(v[j], 2*v[j]), j = 0, m = 1 *)
Definition lt4 : expr := ListTensor [Indexed V2 [Free 0]; Product (IntV 2) (Indexed V2 [Free 0])].
Definition ctk : expr := ComponentTensor (Indexed lt4 [Free 1]) [(0, 2)].

Theorem C05_indexed_ct_keyerror_refuted :
  exists a mi, mk_indexed le_any ff_none false false false 10 a mi = None /\
               length mi = length (shape a) /\ shape (Indexed a mi) = [] /\ fidx (Indexed a mi) = [(1, 2)].
Proof. exists ctk, [Fixed 0]. repeat split. Qed.

Example C05_list_tensor_ct_repaired :
  mk_list_tensor true lt_perm = Some (ListTensor lt_perm) /\ mk_list_tensor true lt_part = Some (ListTensor lt_part).
Proof. split; reflexivity. Qed.
Example C05_indexed_index_sum_repaired :
  mk_indexed le_any ff_none true true true 10 is1 [Free 0] = Some (Indexed is1 [Free 0]).
Proof. reflexivity. Qed.
Example C05_indexed_ct_keyerror_repaired :
  mk_indexed le_any ff_none true true true 10 ctk [Fixed 0] = Some (Indexed ctk [Fixed 0]).
Proof. reflexivity. Qed.

(* 4. binder shortcuts applied to an operand that DEPENDS on the bound index ("diagonal" Indexed nodes, as
      produced e.g. by index renaming passes).  L = ListTensor(v[i], w[i]) has the free index i = 0. *)
Definition W2 : expr := Term 0 3 [2].
Definition ltd : expr := ListTensor [Indexed V2 [Free 0]; Indexed W2 [Free 0]].
Definition cltd : expr := Conj ltd.

(* 4a. as_tensor(L[i], (i,)) -> L : ComponentTensor.__new__ before /repo a0002a9 (fx_cn = false), and the
       function as_tensor() before /repo 347fea2 (fx_at = false): free index i appears although it is bound *)
Theorem C05_component_tensor_dependent_refuted :
  exists a jj e, mk_component_tensor false a jj = Some e /\ fidx e <> fidx (ComponentTensor a jj).
Proof. exists (Indexed ltd [Free 0]), [(0, 2)], ltd. split; [reflexivity|discriminate]. Qed.
Theorem C05_as_tensor_dependent_refuted :
  exists a jj e, mk_as_tensor true false a jj = Some e /\ fidx e <> fidx (ComponentTensor a jj).
Proof. exists (Indexed ltd [Free 0]), [(0, 2)], ltd. split; [reflexivity|discriminate]. Qed.
Example C05_component_tensor_dependent_repaired :
  mk_component_tensor true (Indexed ltd [Free 0]) [(0, 2)] = Some (ComponentTensor (Indexed ltd [Free 0]) [(0, 2)]) /\
  mk_as_tensor true true (Indexed ltd [Free 0]) [(0, 2)] = Some (ComponentTensor (Indexed ltd [Free 0]) [(0, 2)]).
Proof. split; reflexivity. Qed.

(* 4b. ComponentTensor._simplify_indexed: as_tensor(C[i], (i,))[0] -> C[0] although C depends on i, and the
       ListTensor pre-step selects the entry v[i] and forgets to substitute i := 0 in it *)
Definition ctd : expr := ComponentTensor (Indexed cltd [Free 0]) [(0, 2)].
Definition ctd2 : expr := ComponentTensor (Indexed ltd [Free 0]) [(0, 2)].
Theorem C05_indexed_ct_dependent_refuted :
  exists a mi e, mk_indexed le_any ff_none true true false 10 a mi = Some e /\ fidx (Indexed a mi) = [] /\ fidx e <> [].
Proof. exists ctd, [Fixed 0], (Indexed cltd [Fixed 0]). repeat split; discriminate. Qed.
Theorem C05_indexed_ct_prestep_dependent_refuted :
  exists a mi e, mk_indexed le_any ff_none true true false 10 a mi = Some e /\ fidx (Indexed a mi) = [] /\ fidx e <> [].
Proof. exists ctd2, [Fixed 0], (Indexed V2 [Free 0]). repeat split; discriminate. Qed.
Example C05_indexed_ct_dependent_repaired :
  mk_indexed le_any ff_none true true true 10 ctd [Fixed 0] = Some (Indexed ctd [Fixed 0]) /\
  mk_indexed le_any ff_none true true true 10 ctd2 [Fixed 0] = Some (Indexed ctd2 [Fixed 0]).
Proof. split; reflexivity. Qed.

Print Assumptions C05_list_tensor_ct_refuted_shape.
Print Assumptions C05_list_tensor_ct_refuted_value.
Print Assumptions C05_indexed_index_sum_refuted.
Print Assumptions C05_indexed_index_sum_refuted_value.
Print Assumptions C05_indexed_ct_keyerror_refuted.
Print Assumptions C05_component_tensor_dependent_refuted.
Print Assumptions C05_as_tensor_dependent_refuted.
Print Assumptions C05_indexed_ct_dependent_refuted.
Print Assumptions C05_indexed_ct_prestep_dependent_refuted.
