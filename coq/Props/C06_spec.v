(* C06, hand-written part: the specification functions used by [den] for Determinant / Inverse /
   Cofactor are the mathematical ones: adj(M)·M = M·adj(M) = det(M)·I for every matrix of size
   n <= 4 over every UFL algebra, hence adj(M)/det(M) is the two-sided inverse when det(M) <> 0;
   cofactor = adjugate transposed, and the Gram matrix of pseudo-determinants and pseudo-inverses is
   M^T M, both by definition (Core/Den.v); the pseudo-inverse (M^T M)^-1 M^T is a left inverse. *)
Require Import UFLV.Core.Facts.

Section Spec.
Variable A : ualg.
Add Field AfC06 : (kfield A).
Open Scope K_scope.

Definition delta (i j : nat) (x : A) : A := if Nat.eqb i j then x else k0.

Ltac nrm := cbv -[K k0 k1 kadd kmul ksub kopp kdiv kinv].
Ltac cases4 i := destruct i as [|[|[|[|i]]]]; [ | | | | exfalso; lia ].
Ltac cases3 i := destruct i as [|[|[|i]]]; [ | | | exfalso; lia ].
Ltac cases2 i := destruct i as [|[|i]]; [ | | exfalso; lia ].
Ltac cases1 i := destruct i as [|i]; [ | exfalso; lia ].

Lemma adj_left_1 (M : nat -> nat -> A) i j : i < 1 -> j < 1 ->
  ksum 1 (fun k => adjugate 1 M i k * M k j) = delta i j (det 1 M).
Proof. intros Hi Hj; cases1 i; cases1 j; nrm; ring. Qed.
Lemma adj_left_2 (M : nat -> nat -> A) i j : i < 2 -> j < 2 ->
  ksum 2 (fun k => adjugate 2 M i k * M k j) = delta i j (det 2 M).
Proof. intros Hi Hj; cases2 i; cases2 j; nrm; ring. Qed.
Lemma adj_left_3 (M : nat -> nat -> A) i j : i < 3 -> j < 3 ->
  ksum 3 (fun k => adjugate 3 M i k * M k j) = delta i j (det 3 M).
Proof. intros Hi Hj; cases3 i; cases3 j; nrm; ring. Qed.
Lemma adj_left_4 (M : nat -> nat -> A) i j : i < 4 -> j < 4 ->
  ksum 4 (fun k => adjugate 4 M i k * M k j) = delta i j (det 4 M).
Proof. intros Hi Hj; cases4 i; cases4 j; nrm; ring. Qed.

Lemma adj_right_1 (M : nat -> nat -> A) i j : i < 1 -> j < 1 ->
  ksum 1 (fun k => M i k * adjugate 1 M k j) = delta i j (det 1 M).
Proof. intros Hi Hj; cases1 i; cases1 j; nrm; ring. Qed.
Lemma adj_right_2 (M : nat -> nat -> A) i j : i < 2 -> j < 2 ->
  ksum 2 (fun k => M i k * adjugate 2 M k j) = delta i j (det 2 M).
Proof. intros Hi Hj; cases2 i; cases2 j; nrm; ring. Qed.
Lemma adj_right_3 (M : nat -> nat -> A) i j : i < 3 -> j < 3 ->
  ksum 3 (fun k => M i k * adjugate 3 M k j) = delta i j (det 3 M).
Proof. intros Hi Hj; cases3 i; cases3 j; nrm; ring. Qed.
Lemma adj_right_4 (M : nat -> nat -> A) i j : i < 4 -> j < 4 ->
  ksum 4 (fun k => M i k * adjugate 4 M k j) = delta i j (det 4 M).
Proof. intros Hi Hj; cases4 i; cases4 j; nrm; ring. Qed.

Definition adj_left_ok (n : nat) : Prop := forall (M : nat -> nat -> A) i j, i < n -> j < n ->
  ksum n (fun k => adjugate n M i k * M k j) = delta i j (det n M).

Lemma div_mul_l (x d y : A) : d <> k0 -> (x / d) * y = (x * y) / d.
Proof. intros H. field. exact H. Qed.
Lemma ksum_div n (f : nat -> A) d : d <> k0 -> ksum n (fun k => f k / d) = ksum n f / d.
Proof. intros H. induction n as [|n IH]; cbn [ksum]; [field; exact H|]. rewrite IH. field. exact H. Qed.
Lemma div_self (d : A) : d <> k0 -> d / d = k1.
Proof. intros H. field. exact H. Qed.
(* a sum that is d on the diagonal and 0 off it, divided by d term by term *)
Lemma ksum_div_delta n (f : nat -> A) d i j :
  d <> k0 -> ksum n f = delta i j d -> ksum n (fun k => f k / d) = delta i j k1.
Proof.
  intros Hd E. rewrite ksum_div, E by exact Hd. unfold delta.
  destruct (Nat.eqb i j); [apply div_self; exact Hd | apply div_zero_l].
Qed.

(* the value [den] gives to Inverse, adj/det, is the inverse *)
Theorem inverse_spec_is_inverse n (M : nat -> nat -> A) i j :
  adj_left_ok n -> det n M <> k0 -> i < n -> j < n ->
  ksum n (fun k => (adjugate n M i k / det n M) * M k j) = delta i j k1.
Proof.
  intros Hadj Hd Hi Hj.
  rewrite (ksum_ext A n _ (fun k => (adjugate n M i k * M k j) / det n M)).
  2:{ intros k _. apply div_mul_l. exact Hd. }
  apply ksum_div_delta; [exact Hd | apply Hadj; assumption].
Qed.

Theorem inverse_spec_upto4 n (M : nat -> nat -> A) i j :
  1 <= n <= 4 -> det n M <> k0 -> i < n -> j < n ->
  ksum n (fun k => (adjugate n M i k / det n M) * M k j) = delta i j k1.
Proof.
  intros Hn. apply inverse_spec_is_inverse.
  assert (Hc : n = 1 \/ n = 2 \/ n = 3 \/ n = 4) by lia.
  destruct Hc as [Hc|[Hc|[Hc|Hc]]]; subst n; intros M' i' j'.
  - apply adj_left_1. - apply adj_left_2. - apply adj_left_3. - apply adj_left_4.
Qed.

Theorem inverse_spec_right n (M : nat -> nat -> A) i j :
  1 <= n <= 4 -> det n M <> k0 -> i < n -> j < n ->
  ksum n (fun k => M i k * (adjugate n M k j / det n M)) = delta i j k1.
Proof.
  intros Hn Hd Hi Hj.
  rewrite (ksum_ext A n _ (fun k => (M i k * adjugate n M k j) / det n M)) by (intros; field; exact Hd).
  apply ksum_div_delta; [exact Hd|].
  assert (Hc : n = 1 \/ n = 2 \/ n = 3 \/ n = 4) by lia.
  destruct Hc as [Hc|[Hc|[Hc|Hc]]]; subst n;
    [apply adj_right_1 | apply adj_right_2 | apply adj_right_3 | apply adj_right_4]; assumption.
Qed.

(* the value [den] gives to Inverse of an m x n matrix, (M^T M)^-1 M^T, is a left inverse:
   (M^T M)^-1 (M^T M), with the sums exchanged *)
Theorem pseudo_inverse_left m n (M : nat -> nat -> A) i j :
  1 <= n <= 4 -> det n (gram m M) <> k0 -> i < n -> j < n ->
  ksum m (fun k => ksum n (fun l => adjugate n (gram m M) i l / det n (gram m M) * M k l) * M k j)
  = delta i j k1.
Proof.
  intros Hn Hd Hi Hj. rewrite <- (inverse_spec_upto4 n (gram m M) i j Hn Hd Hi Hj).
  rewrite (ksum_ext A m _ (fun k => ksum n (fun l =>
             adjugate n (gram m M) i l / det n (gram m M) * (M k l * M k j)))).
  2:{ intros k _. transitivity (M k j * ksum n (fun l => adjugate n (gram m M) i l / det n (gram m M) * M k l)); [ring|].
      rewrite <- ksum_scal. apply ksum_ext. intros; ring. }
  rewrite ksum_swap. apply ksum_ext. intros l _. apply ksum_scal.
Qed.

Theorem cofactor_is_adjugate_transposed n (M : nat -> nat -> A) i j :
  cofactor n M i j = adjugate n M j i.
Proof. reflexivity. Qed.

(* the Leibniz expansion for n = 2, 3 as a sanity anchor for [det] *)
Example det2_formula (M : nat -> nat -> A) : det 2 M = M 0 0 * M 1 1 - M 0 1 * M 1 0.
Proof. nrm. ring. Qed.
Example det3_formula (M : nat -> nat -> A) :
  det 3 M = M 0 0 * (M 1 1 * M 2 2 - M 1 2 * M 2 1) - M 0 1 * (M 1 0 * M 2 2 - M 1 2 * M 2 0)
          + M 0 2 * (M 1 0 * M 2 1 - M 1 1 * M 2 0).
Proof. nrm. ring. Qed.

End Spec.

Print Assumptions inverse_spec_upto4.
Print Assumptions adj_right_4.
