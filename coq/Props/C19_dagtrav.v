(* C19 - DAGTraverser.__call__ (ufl/corealg/dag_traverser.py): recursion memoised in
   `_visited_cache` under the key (node, keyword arguments).  A `process` handler called on node t
   with keyword arguments k processes its i-th operand with keyword arguments `kw t k i` and
   combines the processed operands with `f t k`.  Theorem (all trees, all kw/f, any sound initial
   cache): the memoised traversal returns exactly the plain recursion over the tree. *)
Require Import List Bool.
Require Import UFLV.Props.C19_tree.
Import ListNotations.

Section DT.
Variable K : Type.                         (* the keyword arguments as passed (absent / explicit values) *)
Variable K_eq_dec : forall a b : K, {a = b} + {a <> b}.
Variable R : Type.
Variable kw : tree -> K -> nat -> K.
Variable f : tree -> K -> list R -> R.

Definition cache := list (tree * K * R).

Fixpoint lookup (t : tree) (k : K) (c : cache) : option R :=
  match c with
  | [] => None
  | (t', k', r) :: rest => if tree_eq_dec t t' then (if K_eq_dec k k' then Some r else lookup t k rest)
                           else lookup t k rest
  end.

(* specification: plain recursion, no memoisation *)
Fixpoint rec_ops (g : tree -> K -> R) (t0 : tree) (k : K) (xs : list tree) (i : nat) : list R :=
  match xs with
  | [] => []
  | x :: r => g x (kw t0 k i) :: rec_ops g t0 k r (S i)
  end.

Fixpoint rec (t : tree) (k : K) {struct t} : R :=
  match t with
  | Node l cs =>
      f (Node l cs) k
        ((fix go (xs : list tree) (i : nat) {struct xs} : list R :=
            match xs with
            | [] => []
            | x :: r => rec x (kw (Node l cs) k i) :: go r (S i)
            end) cs 0)
  end.

(* `[self(operand, **kwargs_i) for operand in o.ufl_operands]` threading the cache *)
Fixpoint dt_ops (g : tree -> K -> cache -> R * cache) (t0 : tree) (k : K) (xs : list tree) (i : nat)
                (c : cache) : list R * cache :=
  match xs with
  | [] => ([], c)
  | x :: r => let (rx, c1) := g x (kw t0 k i) c in
              let (rr, c2) := dt_ops g t0 k r (S i) c1 in (rx :: rr, c2)
  end.

Fixpoint dt (t : tree) (k : K) (c : cache) {struct t} : R * cache :=
  match t with
  | Node l cs =>
      match lookup (Node l cs) k c with
      | Some r => (r, c)
      | None => let (rs, c') :=
                  (fix go (xs : list tree) (i : nat) (c : cache) {struct xs} : list R * cache :=
                     match xs with
                     | [] => ([], c)
                     | x :: r => let (rx, c1) := dt x (kw (Node l cs) k i) c in
                                 let (rr, c2) := go r (S i) c1 in (rx :: rr, c2)
                     end) cs 0 c in
                let r := f (Node l cs) k rs in (r, (Node l cs, k, r) :: c')
      end
  end.

Definition cache_ok (c : cache) : Prop := forall t k r, lookup t k c = Some r -> r = rec t k.

Lemma rec_unfold : forall t k, rec t k = f t k (rec_ops rec t k (ops t) 0).
Proof.
  intros [l cs] k. simpl. f_equal. generalize (Node l cs), 0.
  induction cs as [|x r IH]; intros t0 i; simpl; [reflexivity|]. rewrite IH. reflexivity.
Qed.

Lemma dt_unfold : forall t k c,
  dt t k c = match lookup t k c with
             | Some r => (r, c)
             | None => let (rs, c') := dt_ops dt t k (ops t) 0 c in
                       let r := f t k rs in (r, (t, k, r) :: c')
             end.
Proof.
  intros [l cs] k c. simpl. destruct (lookup (Node l cs) k c); [reflexivity|].
  match goal with |- (let (_, _) := ?go cs 0 c in _) = _ =>
    enough (E : forall i c0, go cs i c0 = dt_ops dt (Node l cs) k cs i c0) by (rewrite E; reflexivity)
  end.
  generalize (Node l cs).
  induction cs as [|x r IH]; intros t0 i c0; simpl; [reflexivity|].
  destruct (dt x (kw t0 k i) c0). rewrite IH. reflexivity.
Qed.

Theorem C19_dagtraverser : forall t k c, cache_ok c ->
  fst (dt t k c) = rec t k /\ cache_ok (snd (dt t k c)).
Proof.
  induction t using tree_ind2. intros k c Hok. rewrite dt_unfold, rec_unfold. simpl ops.
  destruct (lookup (Node l cs) k c) as [r|] eqn:E.
  - simpl. split; auto. rewrite <- rec_unfold. apply Hok; auto.
  - assert (Hl : forall xs i c0, Forall (fun t => forall k c, cache_ok c ->
                      fst (dt t k c) = rec t k /\ cache_ok (snd (dt t k c))) xs -> cache_ok c0 ->
                 fst (dt_ops dt (Node l cs) k xs i c0) = rec_ops rec (Node l cs) k xs i /\
                 cache_ok (snd (dt_ops dt (Node l cs) k xs i c0))).
    { induction xs as [|x r IH]; intros i c0 HF Hc0; simpl; auto.
      inversion HF; subst.
      destruct (H2 (kw (Node l cs) k i) c0 Hc0) as [H1 Hc1].
      destruct (dt x (kw (Node l cs) k i) c0) as [rx c1]. simpl in H1, Hc1.
      destruct (IH (S i) c1 H3 Hc1) as [H4 Hc2].
      destruct (dt_ops dt (Node l cs) k r (S i) c1) as [rr c2]. simpl in *. subst. auto. }
    destruct (Hl cs 0 c H Hok) as [H1 Hc'].
    destruct (dt_ops dt (Node l cs) k cs 0 c) as [rs c']. simpl in *. subst rs. split; auto.
    intros t0 k0 r0. simpl.
    destruct (tree_eq_dec t0 (Node l cs)) as [->|Hn]; [|apply Hc'].
    destruct (K_eq_dec k0 k) as [->|Hk]; [|apply Hc'].
    intros Hr; inversion Hr; subst. rewrite (rec_unfold (Node l cs)). reflexivity.
Qed.

Corollary C19_dagtraverser_fresh : forall t k, fst (dt t k []) = rec t k.
Proof. intros. apply C19_dagtraverser. intros t0 k0 r H; discriminate. Qed.
End DT.

Print Assumptions C19_dagtraverser.
