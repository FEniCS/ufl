(* C13 - executable instance of the expr_equals model, used by the generated correspondence cases
   (coq/Gen/C13_cases_*.v): the model's verdict on a serialised pair of real expressions must equal
   the verdict of the implementation's ==.  The hash is the CONSTANT function, so the hash cut-off of
   expr_equals never fires and the verdict is computed by the stack loop.  Three verdicts are defined: the loop
   with identity oracles that never answer "identical" ([run0]), the loop with oracles that answer "identical"
   whenever structurally identical ([run1]), and the specification ([spec_eq]).  They coincide
   ([C13_exec_models_agree]: C13_py_eq_spec holds for every sound oracle), so a generated case evaluates one
   of [run1], [spec_eq] and has all three. *)
From Coq Require Import List Bool Arith.
Import ListNotations.
Require Import UFLV.Props.C13_equals.

Fixpoint tree_eqb (a b : tree) : bool :=
  match a, b with
  | Node ca pa oa, Node cb pb ob =>
      (ca =? cb) && (pa =? pb) &&
      (fix go (l m : list tree) : bool :=
         match l, m with
         | [], [] => true
         | x :: l', y :: m' => tree_eqb x y && go l' m'
         | _, _ => false
         end) oa ob
  end.

Definition ops_eqb (a b : tree) : bool :=
  (fix go (l m : list tree) : bool :=
     match l, m with
     | [], [] => true
     | x :: l', y :: m' => tree_eqb x y && go l' m'
     | _, _ => false
     end) (ops a) (ops b).

Definition is_term_of (terms : list nat) (c : nat) : bool := existsb (Nat.eqb c) terms.

Definition run0 (terms : list nat) (a b : tree) : bool :=
  py_eq (is_term_of terms) Nat.eqb nat Nat.eqb (fun _ _ => 0) (fun _ _ => 0)
        (fun _ _ => false) (fun _ _ => false) a b.

Definition run1 (terms : list nat) (a b : tree) : bool :=
  py_eq (is_term_of terms) Nat.eqb nat Nat.eqb (fun _ _ => 0) (fun _ _ => 0) tree_eqb ops_eqb a b.

Definition spec_eq (terms : list nat) (a b : tree) : bool := seq (is_term_of terms) Nat.eqb a b.

Definition verdicts terms a b := (run0 terms a b, run1 terms a b, spec_eq terms a b).

(* the oracles of run1 are sound, so C13_py_eq_spec applies to it *)
Lemma tree_eqb_ok : forall a b, tree_eqb a b = true -> a = b.
Proof.
  apply (tree_ind' (fun a => forall b, tree_eqb a b = true -> a = b)).
  intros c p o F [cb pb ob]. simpl. intro E.
  apply andb_prop in E as [E E3]. apply andb_prop in E as [E1 E2].
  apply Nat.eqb_eq in E1, E2. subst. f_equal.
  revert ob E3. induction F; destruct ob; simpl; auto; try discriminate.
  intro E. apply andb_prop in E as [E4 E5]. f_equal; auto.
Qed.

Lemma ops_eqb_ok : forall a b, ops_eqb a b = true -> ops a = ops b.
Proof.
  intros [ca pa oa] [cb pb ob]. unfold ops_eqb. simpl. revert ob.
  induction oa; destruct ob; simpl; auto; try discriminate.
  intro E. apply andb_prop in E as [E1 E2]. f_equal; auto. apply tree_eqb_ok; auto.
Qed.

Theorem C13_exec_models_agree : forall terms a b,
  run0 terms a b = spec_eq terms a b /\ run1 terms a b = spec_eq terms a b.
Proof.
  intros terms a b. unfold run0, run1, spec_eq. split; apply eq_true_iff_eq, C13_py_eq_spec;
    try exact Nat.eqb_refl; try reflexivity.
  (* what is left: [same_ok] and [same_ops_ok] for the oracles of run0, then for those of run1 *)
  - discriminate.
  - discriminate.
  - exact tree_eqb_ok.
  - exact ops_eqb_ok.
Qed.

(* so one run decides all three verdicts *)
Lemma verdicts_run1 ts a b v : run1 ts a b = v -> verdicts ts a b = (v, v, v).
Proof. intros <-. unfold verdicts. destruct (C13_exec_models_agree ts a b) as [-> <-]. reflexivity. Qed.

Lemma verdicts_spec ts a b v : spec_eq ts a b = v -> verdicts ts a b = (v, v, v).
Proof. intros <-. unfold verdicts. destruct (C13_exec_models_agree ts a b) as [-> ->]. reflexivity. Qed.

Print Assumptions C13_exec_models_agree.
