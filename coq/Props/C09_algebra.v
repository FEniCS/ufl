(* C09: the algebra behind cancel_jacobian_products, for every UFL algebra (abstract field).

   JacobianCanceller    sum_k K[i,k] J[k,j] * rest = delta_ij * rest        (C09_contraction_delta)
                        under the hypothesis that K is a left inverse of J (K.J = I holds for
                        the pseudo-inverse of a full rank Jacobian; J.K = I only for square J --
                        the code checks gdim = tdim for that orientation);
   IdentityEliminator   sum_j delta_ij f(j) = f(i)                           (C09_delta_elim(_l));
                        the index substitution f[j -> i] is the IndexReplacer of C10
                        (C10_thm.C10_irep_den: value preserved when the substitution is capture free);
   IndexSumSimplifier   sum interchange and pushing a factor into an inner sum
                                                                (C09_sum_interchange, C09_push_factor);
   ReciprocalCanceller  x^a x^b = x^(a+b), (x^a)^b = x^(ab), x^a (1/x)^b = x^(a-b) for natural
                        exponents and x <> 0                      (C09_pow_merge, C09_pow_pow,
                                                                   C09_recip_cancel, C09_recip_partial);
                        merging a NON-integer exponent through a power is wrong:
                        (x^2)^(1/2) * (1/x) -> 1 fails at x = -1     (C09_recip_refuted). *)
Require Import UFLV.Core.Facts.
Import ListNotations.

Section C09.
Variable A : ualg.
Add Field AfC09 : (kfield A).
Open Scope K_scope.

(* convertible with [Facts.delta] and with [C07_spec.delta] *)
Definition dl (i j : nat) : A := if Nat.eqb i j then k1 else k0.

Lemma ksum_scal_r n (f : nat -> A) r : ksum n (fun k => f k * r) = ksum n f * r.
Proof. transitivity (r * ksum n f); [|ring]. rewrite <- ksum_scal. apply ksum_ext. intros; ring. Qed.

Theorem C09_contraction_delta (g t : nat) (Kf Jf : nat -> nat -> A) :
  (forall i j, i < t -> j < t -> ksum g (fun k => Kf i k * Jf k j) = dl i j) ->
  forall i j r, i < t -> j < t -> ksum g (fun k => Kf i k * Jf k j * r) = dl i j * r.
Proof. intros H i j r Hi Hj. rewrite ksum_scal_r, H by assumption. reflexivity. Qed.

Theorem C09_delta_elim_l n i (f : nat -> A) : i < n -> ksum n (fun j => dl j i * f j) = f i.
Proof. exact (ksum_delta A n i f). Qed.
Theorem C09_delta_elim n i (f : nat -> A) : i < n -> ksum n (fun j => dl i j * f j) = f i.
Proof.
  intros H. rewrite <- (C09_delta_elim_l n i f H). apply ksum_ext. intros k _.
  unfold dl. rewrite Nat.eqb_sym. reflexivity.
Qed.

Theorem C09_sum_interchange n m (f : nat -> nat -> A) :
  ksum n (fun i => ksum m (fun j => f i j)) = ksum m (fun j => ksum n (fun i => f i j)).
Proof. apply ksum_swap. Qed.
Theorem C09_push_factor n (x : A) (f : nat -> A) : x * ksum n f = ksum n (fun k => x * f k).
Proof. symmetry. apply ksum_scal. Qed.

Theorem C09_pow_merge (x : A) a b : kpown x a * kpown x b = kpown x (a + b)%nat.
Proof. induction a as [|a IH]; cbn; [ring|]. rewrite <- IH. ring. Qed.
Lemma kpown_one n : kpown (k1 : A) n = k1.
Proof. induction n as [|n IH]; cbn; [reflexivity|]. rewrite IH. ring. Qed.
Lemma kpown_mul (x y : A) n : kpown (x * y) n = kpown x n * kpown y n.
Proof. induction n as [|n IH]; cbn; [ring|]. rewrite IH. ring. Qed.
Theorem C09_pow_pow (x : A) a b : kpown (kpown x a) b = kpown x (a * b)%nat.
Proof.
  induction a as [|a IH]; cbn [kpown Nat.mul].
  - apply kpown_one.
  - rewrite kpown_mul, IH, C09_pow_merge. reflexivity.
Qed.

Lemma mul_nz (x y : A) : x <> k0 -> y <> k0 -> x * y <> k0.
Proof.
  intros Hx Hy H. apply Hy. transitivity ((k1 / x) * (x * y)); [field; exact Hx|]. rewrite H. ring.
Qed.
Lemma kpown_nz (x : A) n : x <> k0 -> kpown x n <> k0.
Proof. intros H. induction n as [|n IH]; cbn; [apply (F_1_neq_0 (kfield A))|apply mul_nz; assumption]. Qed.
Lemma kpown_recip (x : A) n : x <> k0 -> kpown (k1 / x) n = k1 / kpown x n.
Proof.
  intros H. induction n as [|n IH]; cbn; [field; apply (F_1_neq_0 (kfield A))|]. rewrite IH. field.
  split; [apply kpown_nz|]; exact H.
Qed.
Theorem C09_recip_cancel (x : A) a b : x <> k0 ->
  kpown x (a + b)%nat * (k1 / kpown x b) = kpown x a /\
  kpown x a * (k1 / kpown x (a + b)%nat) = k1 / kpown x b.
Proof.
  intros H. rewrite <- C09_pow_merge. split; field; repeat split; apply kpown_nz; exact H.
Qed.
(* the net exponent of x^a * (1/x)^b, as _make_power builds it *)
Theorem C09_recip_partial (x : A) a b : x <> k0 ->
  kpown x a * kpown (k1 / x) b =
  if Nat.leb b a then kpown x (a - b)%nat else k1 / kpown x (b - a)%nat.
Proof.
  intros H. rewrite kpown_recip by exact H. destruct (Nat.leb b a) eqn:E.
  - apply Nat.leb_le in E. replace a with ((a - b) + b)%nat at 1 by lia.
    apply (proj1 (C09_recip_cancel x (a - b)%nat b H)).
  - apply Nat.leb_gt in E. replace b with (a + (b - a))%nat at 1 by lia.
    apply (proj2 (C09_recip_cancel x a (b - a)%nat H)).
Qed.

(* the defect repaired in /repo by 0f9a1a2: before it, (x**2)**0.5 * (1/x) is merged into 1 ([recip_out]) *)
Definition recip_in : expr :=
  Product (Power (Power (Term 0 0 []) (IntV 2)) (RatV 1 2)) (Division (IntV 1) (Term 0 0 [])).
Definition recip_out : expr := IntV 1.

Variable env : side -> nat -> nat -> list nat -> A.
Variables D DX : nat -> A -> A.
Variable ki : A.
(* in every algebra whose power function satisfies 1^(1/2) = 1 (as the real one does) and in which
   2 <> 0, the output differs from the input when the base is -1 *)
Theorem C09_recip_refuted s rho :
  kpow (k1 : A) (of_Z 1 / of_pos 2) = k1 -> (k1 : A) + k1 <> k0 ->
  env s 0 0 [] = - k1 ->
  @den A env D DX ki s rho recip_out [] <> @den A env D DX ki s rho recip_in [].
Proof.
  intros Hp H2 Hx. unfold recip_in, recip_out. cbn [den]. rewrite Hx.
  assert (E1 : kpown (- k1 : A) (Pos.to_nat 2) = k1) by (change (Pos.to_nat 2) with 2%nat; cbn [kpown]; ring).
  rewrite E1, Hp. intro E. apply H2.
  assert (Hm : (- k1 : A) <> k0).
  { intro E2. apply (F_1_neq_0 (kfield A)). transitivity (- - (k1 : A)); [ring|rewrite E2; ring]. }
  assert (E3 : (k1 : A) * (of_Z 1 / - k1) = - k1) by (cbn [of_Z of_pos]; field; exact Hm).
  rewrite E3 in E. cbn [of_Z of_pos] in E. transitivity ((k1 : A) - - k1); [ring|]. rewrite <- E. ring.
Qed.
End C09.

Print Assumptions C09_contraction_delta.
Print Assumptions C09_delta_elim.
Print Assumptions C09_recip_partial.
Print Assumptions C09_recip_refuted.
