(* C23: what the two traversals of C23_model.v reject and what they return.

   Both [check] and [remove] are partial traversals, and each syntactic theorem about them says the
   same two things: the traversal fails exactly on the inputs that a boolean test calls bad, and
   every output passes a boolean test.  [verdict] is that statement; it is preserved by mapping a
   constructor over one, two or three sub-results, which is all the traversals do outside of a few
   nodes. *)
Require Import UFLV.Core.Facts.
Require Import UFLV.Props.C21_ind.
Require Import UFLV.Props.C23_model.

Definition verdict {X} (r : option X) (good : X -> bool) (bad : bool) : Prop :=
  match r with
  | Some x => good x = true /\ bad = false
  | None => bad = true
  end.

Definition omap2 {X Y Z} (f : X -> Y -> Z) (ra : option X) (rb : option Y) : option Z :=
  match ra, rb with Some a, Some b => Some (f a b) | _, _ => None end.
Definition omap3 {X Y Z W} (f : X -> Y -> Z -> W) (ra : option X) (rb : option Y) (rc : option Z) : option W :=
  match ra, rb, rc with Some a, Some b, Some c => Some (f a b c) | _, _, _ => None end.

Lemma verdict_map {X Y} (f : X -> Y) r gx gy bad :
  verdict r gx bad -> (forall x, gy (f x) = gx x) -> verdict (option_map f r) gy bad.
Proof. intros H Hf. destruct r as [x|]; cbn; [rewrite Hf|]; exact H. Qed.

Lemma verdict_map2 {X Y Z} (f : X -> Y -> Z) ra rb gx gy gz ba bb :
  verdict ra gx ba -> verdict rb gy bb -> (forall x y, gz (f x y) = gx x && gy y) ->
  verdict (omap2 f ra rb) gz (ba || bb).
Proof.
  intros Ha Hb Hf. destruct ra as [x|]; cbn in Ha.
  - destruct Ha as [Gx ->]. destruct rb as [y|]; cbn in *; [|exact Hb].
    destruct Hb as [Gy ->]. rewrite Hf, Gx, Gy. split; reflexivity.
  - rewrite Ha. reflexivity.
Qed.

Lemma verdict_map3 {X Y Z W} (f : X -> Y -> Z -> W) ra rb rc gx gy gz gw ba bb bc :
  verdict ra gx ba -> verdict rb gy bb -> verdict rc gz bc ->
  (forall x y z, gw (f x y z) = gx x && gy y && gz z) ->
  verdict (omap3 f ra rb rc) gw (ba || bb || bc).
Proof.
  intros Ha Hb Hc Hf.
  replace (omap3 f ra rb rc) with (omap2 (fun p z => f (fst p) (snd p) z) (omap2 pair ra rb) rc)
    by (destruct ra, rb, rc; reflexivity).
  apply verdict_map2 with (gx := fun p => gx (fst p) && gy (snd p)) (gy := gz); [|exact Hc|].
  - apply verdict_map2 with (gx := gx) (gy := gy); auto.
  - intros [x y] z. apply Hf.
Qed.

(* The rules of [check] build the output from the outputs for the operands, whatever they do with
   the types: the first component of a result, for the two shapes in which [check] states its rules. *)
Lemma fst_un {X Y T U} (f : X -> Y) (g : X -> T -> U) (r : option (X * T)) :
  option_map fst match r with Some (a, ta) => Some (f a, g a ta) | None => None end
  = option_map f (option_map fst r).
Proof. destruct r as [[]|]; reflexivity. Qed.
Lemma fst_bin {X Y Z T U V} (f : X -> Y -> Z) (g : X -> T -> Y -> U -> V) (ra : option (X * T)) (rb : option (Y * U)) :
  option_map fst match ra, rb with Some (a, ta), Some (b, tb) => Some (f a b, g a ta b tb) | _, _ => None end
  = omap2 f (option_map fst ra) (option_map fst rb).
Proof. destruct ra as [[]|], rb as [[]|]; reflexivity. Qed.

Lemma verdict_un {X Y T U} (f : X -> Y) (g : X -> T -> U) r gx gy bad :
  verdict (option_map fst r) gx bad -> (forall x, gy (f x) = gx x) ->
  verdict (option_map fst match r with Some (a, ta) => Some (f a, g a ta) | None => None end) gy bad.
Proof. rewrite fst_un. apply verdict_map. Qed.
Lemma verdict_bin {X Y Z T U V} (f : X -> Y -> Z) (g : X -> T -> Y -> U -> V) ra rb gx gy gz ba bb :
  verdict (option_map fst ra) gx ba -> verdict (option_map fst rb) gy bb ->
  (forall x y, gz (f x y) = gx x && gy y) ->
  verdict (option_map fst match ra, rb with Some (a, ta), Some (b, tb) => Some (f a b, g a ta b tb) | _, _ => None end)
          gz (ba || bb).
Proof. rewrite fst_bin. apply verdict_map2. Qed.

Lemma wrapped_mk_real a : wrapped (mk_real a) = true.
Proof. unfold mk_real. destruct a; reflexivity. Qed.
Lemma wrapped_site_mk a b : wrapped_site (mk_real a, mk_real b) = true.
Proof. unfold wrapped_site; cbn [fst snd]. rewrite !wrapped_mk_real. reflexivity. Qed.
Lemma sites_mk_real a : sites (mk_real a) = sites a.
Proof. unfold mk_real. destruct a; reflexivity. Qed.

Section Check.
Variable cfn : mathfn -> bool.
Variable cbs : bkind -> bool.
Local Notation check := (C23_model.check cfn cbs).
Local Notation checkc := (C23_model.checkc cfn cbs).
Local Notation check_list := (C23_model.check_list cfn cbs).
Local Notation bad_site := (C23_model.bad_site cfn cbs).

(* [check] rejects exactly the expressions with a bad ordering site, and every ordering site of
   an output is wrapped *)
Definition wrapped_sites {X} (st : X -> list (expr * expr)) (x : X) : bool := forallb wrapped_site (st x).
Definition Vx (e : expr) : Prop :=
  verdict (option_map fst (check e)) (wrapped_sites sites) (existsb bad_site (sites e)).
Definition Vc (c : cond) : Prop :=
  verdict (option_map fst (checkc c)) (wrapped_sites csites) (existsb bad_site (csites c)).

(* compare / min_value / max_value, for any node type [Z] *)
Lemma V_compare {Z} (f : expr -> expr -> Z) (st : Z -> list (expr * expr)) a b :
  Vx a -> Vx b -> (forall x y, st (f x y) = (x, y) :: sites x ++ sites y) ->
  verdict (option_map fst
             match check a, check b with
             | Some (a', ta), Some (b', tb) =>
                 if is_complex ta || is_complex tb then None else Some (f (mk_real a') (mk_real b'), TBool)
             | _, _ => None
             end)
          (wrapped_sites st)
          (bad_site (a, b) || (existsb bad_site (sites a) || existsb bad_site (sites b))).
Proof.
  unfold Vx, wrapped_sites. intros Ha Hb Hf.
  unfold C23_model.bad_site at 1, C23_model.ty_of; cbn [fst snd].
  destruct (check a) as [[a' ta]|]; [|reflexivity].
  destruct (check b) as [[b' tb]|]; [|reflexivity].
  cbn in Ha, Hb. destruct Ha as [Ga ->], Hb as [Gb ->]. cbn. destruct (is_complex ta || is_complex tb); [reflexivity|].
  cbn. rewrite Hf. cbn [forallb].
  rewrite wrapped_site_mk, forallb_app, !sites_mk_real, Ga, Gb. split; reflexivity.
Qed.

Lemma V_list es : Forall Vx es ->
  verdict (option_map fst (check_list es)) (wrapped_sites sites_list) (existsb bad_site (sites_list es)).
Proof.
  induction 1 as [|x es Hx _ IH]; [split; reflexivity|].
  cbn [C23_model.check_list sites_list]. rewrite existsb_app.
  refine (verdict_bin cons _ _ _ _ _ _ _ _ Hx IH _). intros; apply forallb_app.
Qed.

Lemma check_verdict : (forall e, Vx e) /\ (forall c, Vc c).
Proof.
  apply expr_cond_full_ind; unfold Vx, Vc; intros; try rewrite check_ListTensor;
    cbn [C23_model.check C23_model.checkc sites csites]; rewrite ?existsb_app.
  (* literals and terminals *)
  1-8: split; reflexivity.
  (* nodes whose rule builds the output from the outputs for the operands *)
  all: try (refine (verdict_un _ _ _ _ _ _ _ _); [eassumption | reflexivity]).
  all: try (refine (verdict_bin _ _ _ _ _ _ _ _ _ _ _ _); [eassumption | eassumption | intros; apply forallb_app]).
  - (* ListTensor *) refine (verdict_un ListTensor _ _ _ _ _ (V_list es H) _). reflexivity.
  - (* Conditional *)
    rewrite orb_assoc.
    replace (option_map fst _)
      with (omap3 Conditional (option_map fst (checkc c)) (option_map fst (check t)) (option_map fst (check f)))
      by (destruct (checkc c) as [[]|], (check t) as [[]|], (check f) as [[]|]; reflexivity).
    eapply verdict_map3; [eassumption | eassumption | eassumption |].
    intros x y z. unfold wrapped_sites. cbn [sites]. rewrite !forallb_app. apply andb_assoc.
  - (* MinV *) cbn [existsb]. rewrite existsb_app. apply (V_compare MinV sites); auto.
  - (* MaxV *) cbn [existsb]. rewrite existsb_app. apply (V_compare MaxV sites); auto.
  - (* Math *) destruct (cfn f); refine (verdict_un _ _ _ _ _ _ _ _); eassumption || reflexivity.
  - (* Bessel *)
    destruct (cbs k);
      (refine (verdict_bin _ _ _ _ _ _ _ _ _ _ _ _); [eassumption | eassumption | intros; apply forallb_app]).
  - (* Cmp *)
    destruct (ordering op) eqn:Eo; cbn [app existsb orb].
    + rewrite orb_false_r. apply (V_compare (Cmp op) csites); auto.
      intros x y. cbn [csites]. rewrite Eo. reflexivity.
    + refine (verdict_bin _ _ _ _ _ _ _ _ _ _ _ _); [eassumption | eassumption |].
      intros x y. unfold wrapped_sites. cbn [csites]. rewrite Eo. cbn [app]. apply forallb_app.
Qed.
End Check.
