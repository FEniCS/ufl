(** Strict orders given by boolean relations: lexicographic order on lists and on pairs.
    Python compares strings and tuples lexicographically (a proper prefix is smaller); cells, cell keys and
    their names (C26) are ordered that way.  [strict_asym] also serves the directional Sobolev spaces (C25). *)
From Coq Require Import List Bool.
Import ListNotations.

Section Strict.
  Context {A : Type} (r : A -> A -> bool).
  Hypothesis r_irrefl : forall a, r a a = false.
  Hypothesis r_trans : forall a b c, r a b = true -> r b c = true -> r a c = true.

  Lemma strict_asym a b : r a b = true -> r b a = false.
  Proof.
    intro H. destruct (r b a) eqn:E; [|reflexivity].
    rewrite <- (r_irrefl a). symmetry. exact (r_trans _ _ _ H E).
  Qed.
End Strict.

Section Lex.
  Context {A : Type} (ltb eqb : A -> A -> bool).

  Fixpoint lexb (a b : list A) : bool :=
    match a, b with
    | [], [] => false
    | [], _ :: _ => true
    | _ :: _, [] => false
    | x :: a', y :: b' => if ltb x y then true else if eqb x y then lexb a' b' else false
    end.

  Hypothesis eqb_eq : forall a b, eqb a b = true <-> a = b.

  Lemma lex_eqb_refl a : eqb a a = true.
  Proof. apply eqb_eq. reflexivity. Qed.

  Hypothesis ltb_irrefl : forall a, ltb a a = false.

  Lemma lexb_irrefl a : lexb a a = false.
  Proof. induction a as [|x a IH]; cbn; [reflexivity|]. rewrite ltb_irrefl, lex_eqb_refl. exact IH. Qed.

  Hypothesis ltb_trans : forall a b c, ltb a b = true -> ltb b c = true -> ltb a c = true.

  (* the first pair of different heads decides, so the cases are those of [ltb]/[eqb] on the heads *)
  Lemma lexb_trans a b c : lexb a b = true -> lexb b c = true -> lexb a c = true.
  Proof.
    revert b c; induction a as [|x a IH]; intros [|y b] [|z c]; cbn; try congruence.
    destruct (ltb x y) eqn:Lxy.
    - intros _. destruct (ltb y z) eqn:Lyz.
      + intros _. rewrite (ltb_trans _ _ _ Lxy Lyz). reflexivity.
      + destruct (eqb y z) eqn:Eyz; [|discriminate]. apply eqb_eq in Eyz. subst z. rewrite Lxy. reflexivity.
    - destruct (eqb x y) eqn:Exy; [|discriminate]. apply eqb_eq in Exy. subst y.
      intros Hab. destruct (ltb x z); [reflexivity|]. destruct (eqb x z); [|discriminate]. apply IH, Hab.
  Qed.

  Hypothesis ltb_total : forall a b, a <> b -> ltb a b = true \/ ltb b a = true.

  Lemma lexb_total a b : a <> b -> lexb a b = true \/ lexb b a = true.
  Proof.
    revert b; induction a as [|x a IH]; intros [|y b] N; cbn; auto; try congruence.
    destruct (ltb x y) eqn:Lxy; [auto|]. destruct (ltb y x) eqn:Lyx; [auto|].
    destruct (eqb x y) eqn:Exy.
    - apply eqb_eq in Exy. subst y. rewrite lex_eqb_refl. apply IH. congruence.
    - assert (x <> y) as Nxy by (intro Q; apply eqb_eq in Q; congruence).
      destruct (ltb_total _ _ Nxy); congruence.
  Qed.
End Lex.

Record strict_total {A : Type} (ltb : A -> A -> bool) : Prop := {
  st_irrefl : forall a, ltb a a = false;
  st_trans : forall a b c, ltb a b = true -> ltb b c = true -> ltb a c = true;
  st_total : forall a b, a <> b -> ltb a b = true \/ ltb b a = true }.
Arguments st_irrefl {A ltb}.
Arguments st_trans {A ltb}.
Arguments st_total {A ltb}.

Lemma strict_total_ext {A} (ltb ltb' : A -> A -> bool) :
  (forall a b, ltb' a b = ltb a b) -> strict_total ltb -> strict_total ltb'.
Proof.
  intros E S. split; intros *; rewrite ?E; [apply (st_irrefl S) | apply (st_trans S) | apply (st_total S)].
Qed.

Lemma lexb_strict_total {A} (ltb eqb : A -> A -> bool) :
  (forall a b, eqb a b = true <-> a = b) -> strict_total ltb -> strict_total (lexb ltb eqb).
Proof.
  intros E [I T O]. split; [apply lexb_irrefl | apply lexb_trans | apply lexb_total]; assumption.
Qed.

(** Pairs: the first components decide unless they are equal ([eqa] tests that). *)
Section LexProd.
  Context {A B : Type} (lta eqa : A -> A -> bool) (ltb : B -> B -> bool).

  Definition lexprod (x y : A * B) : bool :=
    if eqa (fst x) (fst y) then ltb (snd x) (snd y) else lta (fst x) (fst y).

  Hypothesis eqa_eq : forall a b, eqa a b = true <-> a = b.
  Hypothesis SA : strict_total lta.
  Hypothesis SB : strict_total ltb.

  Lemma lexprod_strict_total : strict_total lexprod.
  Proof.
    pose proof (lex_eqb_refl eqa eqa_eq) as Ra.
    split; unfold lexprod.
    - intros [a b]; cbn. rewrite Ra. apply (st_irrefl SB).
    - intros [a1 b1] [a2 b2] [a3 b3]; cbn.
      destruct (eqa a1 a2) eqn:E12; [apply eqa_eq in E12; subst a2|].
      + destruct (eqa a1 a3); [apply (st_trans SB) | auto].
      + intros H12. destruct (eqa a2 a3) eqn:E23; [apply eqa_eq in E23; subst a3; rewrite E12; auto|].
        intros H23. pose proof (st_trans SA _ _ _ H12 H23) as T.
        destruct (eqa a1 a3) eqn:E13; [|exact T].
        apply eqa_eq in E13. subst a3. rewrite (st_irrefl SA) in T. discriminate.
    - intros [a1 b1] [a2 b2] N; cbn. destruct (eqa a1 a2) eqn:E.
      + apply eqa_eq in E. subst a2. rewrite Ra. apply (st_total SB). congruence.
      + assert (a1 <> a2) as Na by (intro Q; apply eqa_eq in Q; congruence).
        destruct (eqa a2 a1) eqn:E'; [apply eqa_eq in E'; congruence|]. apply (st_total SA), Na.
  Qed.
End LexProd.

Lemma nat_strict_total : strict_total Nat.ltb.
Proof.
  split.
  - exact PeanoNat.Nat.ltb_irrefl.
  - intros a b c. rewrite !PeanoNat.Nat.ltb_lt. apply PeanoNat.Nat.lt_trans.
  - intros a b N. rewrite !PeanoNat.Nat.ltb_lt. apply PeanoNat.Nat.lt_gt_cases, N.
Qed.
