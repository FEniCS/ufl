(* C24: the executable instance of the model over exact rationals (Qc = canonical Q, Leibniz equality),
   used by the generated correspondence files coq/Gen/C24_cases_*.v, the instantiated (closed)
   soundness theorem, and the refutations of totality for the bodies of the pinned tree (cfix = efix = false). *)
Require Import UFLV.Core.Den.
Require Import UFLV.Props.C24_model.
Require Import QArith Qcanon Qreduction Lia.

Local Open Scope Qc_scope.

Definition qlt (x y : Qc) : bool := negb (Qle_bool y x).
Definition qeqb (x y : Qc) : bool := Qeq_bool x y.
Definition q_abs (x : Qc) : Qc := if Qle_bool 0 x then x else - x.
Definition q_cmp (op : cmpop) (x y : Qc) : bool :=
  match op with
  | CEQ => qeqb x y | CNE => negb (qeqb x y)
  | CLT => qlt x y | CGT => qlt y x
  | CLE => Qle_bool x y | CGE => Qle_bool y x
  end.
(* Python: min(a, b) = b if b < a else a ; max(a, b) = b if b > a else a *)
Definition q_min (x y : Qc) : Qc := if qlt y x then y else x.
Definition q_max (x y : Qc) : Qc := if qlt x y then y else x.

Definition QcA0 : ualg :=
  Build_ualg Qc 0 1 Qcplus Qcmult Qcminus Qcopp Qcdiv Qcinv Qcft
    (fun x => x) (fun x => x) (fun _ => 0) q_abs
    (fun _ _ => 0) (fun _ _ => 0) (fun _ _ => 0) (fun _ _ _ => 0)
    bool q_cmp andb orb negb (fun b x y => if b then x else y) q_min q_max.

(* exponent as an integer, if it is one *)
Definition q_int (y : Qc) : option Z :=
  match Qden (this y) with xH => Some (Qnum (this y)) | _ => None end.
Definition q_pow (x y : Qc) : Qc :=
  match q_int y with
  | Some Z0 => 1
  | Some (Zpos p) => @kpown QcA0 x (Pos.to_nat p)
  | Some (Zneg p) => / @kpown QcA0 x (Pos.to_nat p)
  | None => 0
  end.
Definition QcA : ualg :=
  Build_ualg Qc 0 1 Qcplus Qcmult Qcminus Qcopp Qcdiv Qcinv Qcft
    (fun x => x) (fun x => x) (fun _ => 0) q_abs
    (fun _ _ => 0) q_pow (fun _ _ => 0) (fun _ _ _ => 0)
    bool q_cmp andb orb negb (fun b x y => if b then x else y) q_min q_max.

(* Python primitives on Fractions *)
Definition q_pdiv (x y : Qc) : option Qc := if qeqb y 0 then None else Some (x / y).
Definition q_ppow (x y : Qc) : option Qc :=
  match q_int y with
  | Some (Zneg p) => if qeqb x 0 then None else Some (q_pow x y)     (* ZeroDivisionError *)
  | Some _ => Some (q_pow x y)
  | None => None                         (* non-integer exponent: float/complex result, not exact *)
  end.
Definition q_none2 (x y : Qc) : option Qc := None.
Definition q_pmath (f : mathfn) (x : Qc) : option Qc := None.
Definition q_pbessel (k : bkind) (x y : Qc) : option Qc := None.

(* data of a generated case *)
Inductive qval := QN (q : Q) | QT (l : list qval).
Fixpoint to_pyval (v : qval) : pyval QcA :=
  match v with
  | QN q => PNum QcA (Q2Qc q)
  | QT l => PTup QcA (map to_pyval l)
  end.
Inductive qentry :=
  | QCall (table : list (list nat * qval))       (* derivatives tuple -> returned value *)
  | QVal (v : qval).
Fixpoint tbl_get (t : list (list nat * qval)) (ds : list nat) : pyval QcA :=
  match t with
  | [] => PTup QcA []                   (* never requested by the run that produced the table *)
  | (d, v) :: t' => if leqb d ds then to_pyval v else tbl_get t' ds
  end.
Fixpoint map_get (m : list (nat * nat * qentry)) (k id : nat) : option (mentry QcA) :=
  match m with
  | [] => None
  | (k', id', en) :: t =>
      if Nat.eqb k k' && Nat.eqb id id' then
        Some (match en with QCall tb => MCall QcA (tbl_get tb) | QVal v => MVal QcA (to_pyval v) end)
      else map_get t k id
  end.

Definition py_eval_Q (cfix efix : bool) (m : list (nat * nat * qentry)) (x : list Q) (e : expr) (c : list nat)
  : option Q :=
  option_map this
    (py_call QcA (map_get m) (map Q2Qc x) 0 q_pdiv q_ppow q_none2 q_pmath q_pbessel (fun b => b) cfix efix e c).

(* the hypotheses of the soundness theorem that concern the algebra and the primitives hold here   *)
Lemma q_pdiv_ok x y v : q_pdiv x y = Some v -> v = @kdiv QcA x y.
Proof. unfold q_pdiv. destruct (qeqb y 0); intros E; inversion E; reflexivity. Qed.
Lemma q_ppow_ok x y v : q_ppow x y = Some v -> v = @kpow QcA x y.
Proof.
  unfold q_ppow. cbn [kpow QcA]. destruct (q_int y) as [[|p|p]|]; try discriminate;
  try (intros E; inversion E; reflexivity).
  destruct (qeqb x 0); intros E; inversion E; reflexivity.
Qed.
Lemma q_pow0 x : @kpow QcA x (@k0 QcA) = @k1 QcA.
Proof. reflexivity. Qed.

Lemma this_of_pos p : this (@of_pos QcA p) = (Zpos p # 1)%Q.
Proof.
  induction p as [p IH|p IH|]; cbn [of_pos]; cbn [kadd kmul k1 QcA].
  1-2: unfold Qcplus, Qcmult; cbn [this Q2Qc]; rewrite IH;
    match goal with |- _ = ?q => rewrite <- (Qred_identity q) by apply Z.gcd_1_r end;
    apply Qred_complete; rewrite !Qred_correct; unfold Qeq; cbn; lia.
  reflexivity.
Qed.
Lemma q_powp x p : @kpow QcA x (@of_pos QcA p) = @kpown QcA x (Pos.to_nat p).
Proof.
  cbn [kpow QcA]. unfold q_pow, q_int. rewrite this_of_pos. cbn [Qden Qnum].
  generalize (Pos.to_nat p). intros n. induction n as [|n IHn]; cbn; [reflexivity|]. rewrite IHn. reflexivity.
Qed.

Section Inst.
Variables cfix efix : bool.
Variable m : list (nat * nat * qentry).
Variable x : list Q.
Variable tsh : nat -> nat -> list nat.
Variable env : side -> nat -> nat -> list nat -> Qc.
Variable D DX : nat -> Qc -> Qc.
Notation MP := (map_get m).
Notation XP := (map Q2Qc x).
Notation ITER := (iterD QcA D).

(* the consistency of the mapping with the environment stays a hypothesis: it is what "a mapping
   for the terminals" means *)
Hypothesis H_mcall : forall s k id f ds c v, MP k id = Some (MCall QcA f) ->
  pv_num QcA (f ds) c = Some v -> length c = length (tsh k id) /\ v = ITER ds (env s k id c).
Hypothesis H_mval : forall s k id p c v, MP k id = Some (MVal QcA p) ->
  pv_num QcA p c = Some v -> length c = length (tsh k id) /\ v = env s k id c.
Hypothesis H_mval_d : forall s k id p c j ds, MP k id = Some (MVal QcA p) ->
  ITER (j :: ds) (env s k id c) = 0.
Hypothesis H_sc : forall s id i v, nth_error XP i = Some v -> v = env s KIND_SC id [i].
Hypothesis H_sc_sh : forall id, length (tsh KIND_SC id) = 1%nat.

(* the closed instance of the main theorem for the executable interpreter of the generated cases *)
Theorem C24_eval_sound_Q e c q :
  wf tsh e = true -> length c = length (shape e) -> py_eval_Q cfix efix m x e c = Some q ->
  exists v : Qc, this v = q /\ v = @den QcA env D DX 0 None (fun _ => 0%nat) e c.
Proof.
  intros W L E. unfold py_eval_Q in E.
  destruct (py_call QcA MP XP 0 q_pdiv q_ppow q_none2 q_pmath q_pbessel (fun b => b) cfix efix e c) as [v|] eqn:EV;
    [|discriminate E].
  cbn in E. inversion E; subst. exists v. split; [reflexivity|].
  eapply (C24_call_sound QcA MP XP 0 q_pdiv q_ppow q_none2 q_pmath q_pbessel (fun b => b) cfix efix tsh env D DX);
    eauto using q_pdiv_ok, q_ppow_ok, q_pow0, q_powp; try discriminate; try reflexivity.
Qed.
End Inst.

(* Totality fails on well-formed inputs with the bodies of the pinned tree (cfix = false, efix = false) *)
Definition tsh_w (k id : nat) : list nat :=
  match k, id with 0%nat, 2%nat | 0%nat, 3%nat => [2%nat] | _, _ => [] end.
Definition map_w : list (nat * nat * qentry) :=
  [ (0, 0, QVal (QN (1#3))); (0, 1, QVal (QN (2#5)));
    (0, 2, QVal (QT [QN (1#2); QN (3#2)])); (0, 3, QVal (QT [QN 5; QN 7])) ]%nat.
(* conditional(lt(f, g), v, w) with scalar f, g and vector v, w *)
Definition cond_w : expr :=
  Conditional (Cmp CLT (Term 0 0 []) (Term 0 1 [])) (Term 0 2 [2%nat]) (Term 0 3 [2%nat]).

(* the expression is well-formed, every part of it evaluates, its mathematical value at component 0
   is v[0] = 1/2 -- and the interpreter (like the pinned tree: TypeError) fails *)
Theorem C24_conditional_refuted :
  exists e c, wf tsh_w e = true /\ length c = length (shape e) /\
    py_eval_Q false false map_w [] e c = None /\
    (* the same condition and the same branch evaluate on their own: *)
    py_eval_Q false false map_w [] (Conditional (Cmp CLT (Term 0 0 []) (Term 0 1 [])) (IntV 1) (IntV 0)) [] = Some 1%Q /\
    py_eval_Q false false map_w [] (Term 0 2 [2%nat]) c = Some (1#2)%Q.
Proof. exists cond_w, [0%nat]. vm_compute. repeat split; reflexivity. Qed.

(* indexing the conditional does not help: Indexed passes the component on *)
Theorem C24_conditional_indexed_refuted :
  wf tsh_w (Indexed cond_w [Fixed 0]) = true /\
  py_eval_Q false false map_w [] (Indexed cond_w [Fixed 0]) [] = None.
Proof. vm_compute. split; reflexivity. Qed.

(* what does hold: a conditional evaluated at the empty component (scalar branches) evaluates its
   condition at the empty component and then exactly the selected branch *)
Theorem C24_conditional_partial (A : ualg) mapping xpt ki pdiv ppow patan2 pmath pbessel bval cfix efix iv cnd t f :
  py_eval A mapping xpt ki pdiv ppow patan2 pmath pbessel bval cfix efix iv (Conditional cnd t f) [] [] =
  match py_evalc A mapping xpt ki pdiv ppow patan2 pmath pbessel bval cfix efix iv cnd [] with
  | Some true => py_eval A mapping xpt ki pdiv ppow patan2 pmath pbessel bval cfix efix iv t [] []
  | Some false => py_eval A mapping xpt ki pdiv ppow patan2 pmath pbessel bval cfix efix iv f [] []
  | None => None
  end.
Proof. destruct cfix; reflexivity. Qed.

(* with the repaired bodies (cfix / efix = true) the same witnesses evaluate to the mathematical value *)
Theorem C24_conditional_repaired :
  py_eval_Q true false map_w [] cond_w [0%nat] = Some (1#2)%Q /\
  py_eval_Q true false map_w [] (Indexed cond_w [Fixed 0]) [] = Some (1#2)%Q.
Proof. vm_compute. split; reflexivity. Qed.
Theorem C24_permsym_repaired :
  py_eval_Q false true map_w [] (PermSym 3) [0; 1; 2]%nat = Some 1%Q /\
  py_eval_Q false true map_w [] (PermSym 3) [0; 2; 1]%nat = Some (-1)%Q /\
  py_eval_Q false true map_w [] (PermSym 3) [0; 2; 2]%nat = Some 0%Q.
Proof. vm_compute. repeat split; reflexivity. Qed.

(* PermutationSymbol.evaluate returns a UFL object: no expression that reaches it evaluates to a
   number, e.g. eps[0,1,2] *)
Theorem C24_permsym_refuted :
  exists e c, wf tsh_w e = true /\ length c = length (shape e) /\ py_eval_Q false false map_w [] e c = None.
Proof. exists (PermSym 3), [0; 1; 2]%nat. vm_compute. repeat split; reflexivity. Qed.

(* rule table: which `evaluate` rule the model assumes for every node class (compared with the table
   that py/C24_ast.py extracts from the source on every run) *)
Inductive comp_arg := CPass | CEmpty.                   (* component passed on / () *)
Inductive rule :=
  | RBin (op : nat) (ca cb : comp_arg)                  (* a = op0.evaluate(..ca..); b = op1.evaluate(..cb..); return a <op> b *)
  | RUn (op : nat) (ca : comp_arg)                      (* a = op0.evaluate(..ca..); return <op>(a) *)
  | RCustom (tag : nat).                                (* loop/branch methods: body compared by digest *)


(* declared terminal shapes of a generated case *)
Fixpoint tsh_of (l : list (nat * nat * list nat)) (k id : nat) : list nat :=
  match l with
  | [] => []
  | (k', id', sh) :: t => if Nat.eqb k k' && Nat.eqb id id' then sh else tsh_of t k id
  end.

(* the rule table the model assumes for the straight-line `evaluate` methods; py/C24_ast.py extracts
   the same table from the source on every run and Gen/C24_rules.v compares them by reflexivity.
   The numbers of node classes and operations have their meaning from py/C24_ast.py only. *)
Definition model_rules : list (nat * rule) :=
  [ (0, RBin 1 CPass CPass)    (* Division: a / b *)
  ; (1, RBin 2 CPass CPass)    (* Power: a ** b *)
  ; (2, RUn 1 CPass)           (* Abs: abs(a) *)
  ; (3, RUn 2 CPass)           (* Conj: a.conjugate() *)
  ; (4, RUn 3 CPass)           (* Real: a.real *)
  ; (5, RUn 4 CPass)           (* Imag: a.imag *)
  ; (6, RBin 3 CPass CPass)    (* EQ: bool(a == b) *)
  ; (7, RBin 4 CPass CPass)    (* NE *)
  ; (8, RBin 5 CPass CPass)    (* LE *)
  ; (9, RBin 6 CPass CPass)    (* GE *)
  ; (10, RBin 7 CPass CPass)   (* LT *)
  ; (11, RBin 8 CPass CPass)   (* GT *)
  ; (12, RBin 9 CPass CPass)   (* AndCondition: bool(a and b) *)
  ; (13, RBin 10 CPass CPass)  (* OrCondition *)
  ; (14, RUn 5 CPass)          (* NotCondition: bool(not a) *)
  ; (15, RUn 6 CPass)          (* Variable: a *)
  ; (16, RUn 6 CPass)          (* Restricted *)
  ; (17, RUn 6 CPass)          (* CellAvg *)
  ; (18, RUn 6 CPass)          (* FacetAvg *)
  ]%nat.

Print Assumptions C24_eval_sound.
Print Assumptions C24_call_sound.
Print Assumptions C24_eval_sound_Q.
Print Assumptions C24_stackdict_push_pop.
Print Assumptions C24_conditional_refuted.
Print Assumptions C24_permsym_refuted.
