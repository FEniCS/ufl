(* C16 - the algebra behind lhs / rhs / functional / action / adjoint / energy_norm.

   An integrand with a test function v and a trial function u is, semantically, a function
   F : T -> T -> K of the VALUES of the two arguments (T = whatever an argument's value is: a family
   of components and derivatives; only its zero [o] matters).  The generated obligations
   (coq/Gen/C16_t2_*.v) prove, for the real outputs of lhs/rhs/functional,

       den(lhs F)        = F v u - F v o - F o u + F o o        (inclusion-exclusion, "e_vu")
       den(rhs F)        = - (F v o - F o o)                     ("- e_v")
       den(functional F) = F o o                                 ("e_0")

   This file proves, for ALL such F over an arbitrary UFL algebra, that these inclusion-exclusion
   parts ARE the bilinear / linear / constant parts of F whenever F is a sum of a part B(v,u)
   vanishing when either argument vanishes, a part L(v) vanishing with v, a part M(u) vanishing
   with u (the "u*f*dx" term that compute_form_with_arity's comment mentions) and a constant c;
   that consequently F = lhs - rhs + functional when M = 0; that such a decomposition is unique
   (so "lhs - rhs + functional = F" together with the vanishing of lhs/rhs at zero arguments, which
   are also generated obligations, determine lhs and rhs); and the algebraic facts used for action,
   energy_norm and adjoint (substitution commutes with the parts; the adjoint is an involution
   that maps parts to parts). *)
Require Import UFLV.Core.Alg.

Section C16.
Variable A : ualg.
Add Field Af16 : (kfield A).
Open Scope K_scope.

Variable T : Type.
Variable o : T.                       (* the zero value of an argument *)

(* inclusion-exclusion parts of an arbitrary F *)
Definition part_00 (F : T -> T -> A) : A := F o o.
Definition part_v (F : T -> T -> A) (v : T) : A := F v o - F o o.
Definition part_u (F : T -> T -> A) (u : T) : A := F o u - F o o.
Definition part_vu (F : T -> T -> A) (v u : T) : A := F v u - F v o - F o u + F o o.

(* what the code computes (as established per form by the generated obligations) *)
Definition sem_lhs (F : T -> T -> A) (v u : T) : A := part_vu F v u.
Definition sem_rhs (F : T -> T -> A) (v : T) : A := - part_v F v.
Definition sem_functional (F : T -> T -> A) : A := part_00 F.

Section Decomposition.
Variables (B : T -> T -> A) (L M : T -> A) (c : A).
Hypothesis B_v0 : forall u, B o u = k0.
Hypothesis B_u0 : forall v, B v o = k0.
Hypothesis L_0 : L o = k0.
Hypothesis M_0 : M o = k0.
Variable F : T -> T -> A.
Hypothesis F_def : forall v u, F v u = B v u + L v + M u + c.

Theorem C16_parts_recover :
  (forall v u, part_vu F v u = B v u) /\ (forall v, part_v F v = L v) /\
  (forall u, part_u F u = M u) /\ part_00 F = c.
Proof.
  repeat split; intros; unfold part_vu, part_v, part_u, part_00; rewrite !F_def;
    rewrite ?B_v0, ?B_u0, ?L_0, ?M_0; ring.
Qed.

(* lhs is the bilinear part, rhs minus the linear part, functional the constant *)
Corollary C16_lhs_rhs_functional :
  (forall v u, sem_lhs F v u = B v u) /\ (forall v, sem_rhs F v = - L v) /\ sem_functional F = c.
Proof.
  destruct C16_parts_recover as (H1 & H2 & _ & H4). unfold sem_lhs, sem_rhs, sem_functional.
  repeat split; intros; rewrite ?H1, ?H2, ?H4; reflexivity.
Qed.

(* F = lhs - rhs (+ functional) exactly when there is no trial-only part *)
Theorem C16_F_eq_lhs_minus_rhs :
  (forall u, M u = k0) ->
  forall v u, F v u = sem_lhs F v u - sem_rhs F v + sem_functional F.
Proof.
  intros HM v u. destruct C16_lhs_rhs_functional as (H1 & H2 & H3).
  rewrite H1, H2, H3, F_def, HM. ring.
Qed.

Corollary C16_system : (forall u, M u = k0) -> c = k0 ->
  forall v u, F v u = sem_lhs F v u - sem_rhs F v.
Proof.
  intros HM Hc v u. rewrite (C16_F_eq_lhs_minus_rhs HM v u).
  destruct C16_lhs_rhs_functional as (_ & _ & H3). rewrite H3, Hc. ring.
Qed.

(* the trial-only part is dropped by all three (the quirk noted in compute_form_with_arity) *)
Theorem C16_trial_only_dropped :
  forall v u, sem_lhs F v u - sem_rhs F v + sem_functional F = F v u - M u.
Proof.
  intros v u. destruct C16_lhs_rhs_functional as (H1 & H2 & H3).
  rewrite H1, H2, H3, F_def. ring.
Qed.
End Decomposition.

(* uniqueness: a decomposition into parts vanishing at zero arguments is unique, so the generated
   obligations "lhs - rhs + functional = F", "lhs|v=0 = lhs|u=0 = 0", "rhs|v=0 = 0", "rhs does not
   depend on u" pin down lhs, rhs and functional *)
Theorem C16_decomposition_unique
  (B B' : T -> T -> A) (L L' : T -> A) (c c' : A) :
  (forall u, B o u = k0) -> (forall v, B v o = k0) -> L o = k0 ->
  (forall u, B' o u = k0) -> (forall v, B' v o = k0) -> L' o = k0 ->
  (forall v u, B v u + L v + c = B' v u + L' v + c') ->
  (forall v u, B v u = B' v u) /\ (forall v, L v = L' v) /\ c = c'.
Proof.
  (* both triples are the parts of the same F *)
  intros b1 b2 l0 b1' b2' l0' E. set (F := fun v u => B v u + L v + c).
  destruct (C16_parts_recover B L (fun _ => k0) c b1 b2 l0 eq_refl F) as (H1 & H2 & _ & H4);
    [intros; unfold F; ring|].
  destruct (C16_parts_recover B' L' (fun _ => k0) c' b1' b2' l0' eq_refl F) as (H1' & H2' & _ & H4');
    [intros; unfold F; rewrite E; ring|].
  repeat split; intros; [rewrite <- H1, H1' | rewrite <- H2, H2' | rewrite <- H4, H4']; reflexivity.
Qed.

(* the parts of a bi-additive / additive decomposition are bi-additive / additive: lhs is bilinear
   and rhs linear as soon as the terms of F are (multilinearity of the terms is property C14) *)
Section Additive.
Variable plus : T -> T -> T.
Variables (B : T -> T -> A) (L : T -> A) (c : A).
Hypothesis B_add_l : forall v v' u, B (plus v v') u = B v u + B v' u.
Hypothesis B_add_r : forall v u u', B v (plus u u') = B v u + B v u'.
Hypothesis L_add : forall v v', L (plus v v') = L v + L v'.
Hypothesis plus_o : plus o o = o.
Let F v u := B v u + L v + c.

Lemma add_zero (h : T -> A) : (forall x y, h (plus x y) = h x + h y) -> h o = k0.
Proof. intros H. apply self_double. rewrite <- H, plus_o. reflexivity. Qed.

Theorem C16_lhs_bilinear_rhs_linear :
  (forall v v' u, sem_lhs F (plus v v') u = sem_lhs F v u + sem_lhs F v' u) /\
  (forall v u u', sem_lhs F v (plus u u') = sem_lhs F v u + sem_lhs F v u') /\
  (forall v v', sem_rhs F (plus v v') = sem_rhs F v + sem_rhs F v') /\
  (forall v u, F v u = sem_lhs F v u - sem_rhs F v + sem_functional F).
Proof.
  assert (P := C16_lhs_rhs_functional B L (fun _ => k0) c
                 (fun u => add_zero (fun v => B v u) (fun v v' => B_add_l v v' u))
                 (fun v => add_zero (B v) (B_add_r v)) (add_zero L L_add) eq_refl F).
  destruct P as (H1 & H2 & H3). { intros; unfold F; ring. }
  repeat split; intros; rewrite ?H1, ?H2, ?H3, ?B_add_l, ?B_add_r, ?L_add; unfold F; ring.
Qed.
End Additive.

(* action / energy norm: substituting the trial function commutes with taking parts; the action of
   the bilinear part on f is the f-linear part, energy_norm is the diagonal *)
Definition sem_action (F : T -> T -> A) (f : T) : T -> A := fun v => F v f.
Definition sem_energy (F : T -> T -> A) (f : T) : A := F f f.

Theorem C16_action_energy (F : T -> T -> A) (f : T) :
  (forall v, sem_action (sem_lhs F) f v = part_vu F v f) /\
  sem_energy F f = sem_action F f f /\
  (forall v, sem_action F f v - sem_action F f o = part_vu F v f + part_v F v).
Proof.
  repeat split; intros; unfold sem_action, sem_energy, sem_lhs, part_vu, part_v; try reflexivity; ring.
Qed.

(* adjoint: conj of the form with the two slots exchanged.  With conj an involutive ring morphism
   it is an involution and maps the bilinear part to the bilinear part of the adjoint *)
Definition sem_adjoint (F : T -> T -> A) : T -> T -> A := fun v u => kconj (F u v).

Section Adjoint.
Hypothesis conj_invol : forall x : A, kconj (kconj x) = x.
Hypothesis conj_add : forall x y : A, kconj (x + y) = kconj x + kconj y.
Hypothesis conj_sub : forall x y : A, kconj (x - y) = kconj x - kconj y.

Theorem C16_adjoint_involution (F : T -> T -> A) v u : sem_adjoint (sem_adjoint F) v u = F v u.
Proof. unfold sem_adjoint. apply conj_invol. Qed.

Theorem C16_adjoint_parts (F : T -> T -> A) v u :
  part_vu (sem_adjoint F) v u = sem_adjoint (part_vu F) v u.
Proof.
  unfold part_vu, sem_adjoint. rewrite conj_add, !conj_sub. ring.
Qed.
End Adjoint.

(* ------------------------------------------------------------------------------------------
   Finding (adjoint on MixedFunctionSpace forms): compute_form_adjoint treats every block (i,j)
   separately and gives the new arguments "the number AND the part of the other one".  Model:
   a blocked form is sum_{i,j} a_ij(v_i, u_j) with v, u families of argument values indexed by the
   part.  The true adjoint is  (w, z) |-> conj(a(z, w)) = sum_ij conj(a_ij(z_i, w_j));
   the code produces            (w, z) |-> sum_ij conj(a_ij(z_j, w_i))   (block (i,j) stays at
   position (i,j), its slots are exchanged but the parts are not transposed). *)
Section BlockedAdjoint.
Variable blk : nat -> nat -> T -> T -> A.        (* a_ij *)
Variable n : nat.                                 (* number of parts *)
Definition blocked (v u : nat -> T) : A :=
  ksum n (fun i => ksum n (fun j => blk i j (v i) (u j))).
Definition adjoint_true (w z : nat -> T) : A := kconj (blocked z w).
Definition adjoint_code (w z : nat -> T) : A :=
  ksum n (fun i => ksum n (fun j => kconj (blk i j (z j) (w i)))).

Hypothesis conj_add : forall x y : A, kconj (x + y) = kconj x + kconj y.
Hypothesis conj_zero : kconj k0 = (k0 : A).

Lemma conj_ksum m (f : nat -> A) : kconj (ksum m f) = ksum m (fun k => kconj (f k)).
Proof.
  induction m as [|m IH]; cbn; [|rewrite conj_add, IH; reflexivity].
  apply self_double. rewrite <- conj_add. replace (k0 + k0) with (k0 : A) by ring. reflexivity.
Qed.

(* partial: correct when only diagonal blocks are present *)
Lemma adjoint_code_diagonal :
  (forall i j x y, i <> j -> blk i j x y = k0) ->
  forall w z, adjoint_code w z = adjoint_true w z.
Proof.
  intros Hd w z. unfold adjoint_code, adjoint_true, blocked.
  rewrite conj_ksum. apply ksum_ext. intros i _. rewrite conj_ksum. apply ksum_ext. intros j _.
  destruct (Nat.eq_dec i j) as [->|ne]; [reflexivity|].
  rewrite (Hd i j _ _ ne), (Hd i j _ _ ne). reflexivity.
Qed.
Theorem C16_adjoint_parts_partial :
  (forall i j x y, i <> j -> blk i j x y = k0) ->
  forall w z, adjoint_code w z = adjoint_true w z.
Proof using conj_add conj_zero. exact adjoint_code_diagonal. Qed.
End BlockedAdjoint.
End C16.

(* refuted in general: for a 2-part form whose only block is (1,0) the code's result is 0 and the
   adjoint 1 (T = K).  They differ in every UFL algebra: the proof takes 1 <> 0 from the field axioms
   ([F_1_neq_0]), not from the premise [one_neq_zero]. *)
Section Refuted.
Variable A : ualg.
Add Field Af16r : (kfield A).
Open Scope K_scope.
Hypothesis one_neq_zero : (k1 : A) <> k0.
Hypothesis conj_one : kconj (k1 : A) = k1.
Hypothesis conj_zero : kconj (k0 : A) = k0.

(* a_10(x, y) = x: a block that reads only its test slot, e.g.  v_1 * c * dx  at c = 1 *)
Definition wblk (i j : nat) (x y : A) : A :=
  match i, j with 1, 0 => x | _, _ => k0 end.

Lemma adjoint_code_wrong :
  exists (w z : nat -> A),
    adjoint_code A A wblk 2 w z <> adjoint_true A A wblk 2 w z.
Proof.
  set (w := fun _ : nat => (k0 : A)).
  set (z := fun i : nat => match i with 0 => (k0 : A) | _ => k1 end).
  exists w, z.
  assert (Hc : adjoint_code A A wblk 2 w z = k0).
  { unfold adjoint_code, wblk, w, z. cbn. rewrite !conj_zero. ring. }
  assert (Ht : adjoint_true A A wblk 2 w z = k1).
  { unfold adjoint_true, blocked, wblk, w, z. cbn.
    match goal with |- kconj ?X = _ => replace X with (k1 : A) by ring end. apply conj_one. }
  rewrite Hc, Ht. intro E. apply (F_1_neq_0 (kfield A)). symmetry. exact E.
Qed.
Theorem C16_adjoint_parts_refuted :
  exists (w z : nat -> A),
    adjoint_code A A wblk 2 w z <> adjoint_true A A wblk 2 w z.
Proof using one_neq_zero conj_one conj_zero. exact adjoint_code_wrong. Qed.
End Refuted.

Print Assumptions C16_parts_recover.
Print Assumptions C16_F_eq_lhs_minus_rhs.
Print Assumptions C16_decomposition_unique.
Print Assumptions C16_lhs_bilinear_rhs_linear.
Print Assumptions C16_action_energy.
Print Assumptions C16_adjoint_parts.
Print Assumptions C16_adjoint_parts_partial.
Print Assumptions C16_adjoint_parts_refuted.
