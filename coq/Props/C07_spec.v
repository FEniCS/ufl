(* C07, hand-written part 1: what "the geometric quantity of the actual cell" means.

   A non-degenerate affine simplex of topological dimension t embedded in K^g is given by its
   vertices  V k i  (vertex k, coordinate i).  This file defines, as Gallina functions of the
   vertex coordinates only, every quantity that GeometryLoweringApplier lowers, together with the
   TRUSTED reference-cell convention table (the one form compilers use: FFCx/basix), and the
   predicate [interp] that says how the terminals that remain after lowering are to be read:

   reference simplex   vertices 0, e_1, .., e_t
   edges (vertex pairs) triangle 0:(1,2) 1:(0,2) 2:(0,1)
                        tetrahedron 0:(2,3) 1:(1,3) 2:(1,2) 3:(0,3) 4:(0,2) 5:(0,1)
   facets              interval: facet f = vertex f;  triangle/tetrahedron: facet f = the vertices
                       other than f, ascending ([skip f]); edges of a tetrahedron facet are the
                       triangle edges of its vertex list
   reference normals   interval -1, +1;  facet 0 of triangle/tetrahedron: rd*(1,..,1) with rd > 0
                       (1/sqrt 2, 1/sqrt 3);  facet f >= 1: -e_f
   reference volumes   1/t! (cell), 1/(t-1)! (facet)
   x0 (CellOrigin)     vertex 0;   J = dx/dX = [v_(j+1) - v_0];   x = v_0 + J X.               *)
Require Import UFLV.Core.Den.

Section Geo.
Variable A : ualg.
Add Field AfC07 : (kfield A).
Open Scope K_scope.

Variable V : nat -> nat -> A.      (* V k i : coordinate i of vertex k *)
Variable Xr : nat -> A.            (* reference coordinates of the evaluation point *)
Variable co : A.                   (* cell orientation (+1/-1), manifolds only *)
Variable rd : A.                   (* component of the diagonal facet's reference normal *)

(* ---- linear algebra helpers -------------------------------------------------------------- *)
Definition dotp (g : nat) (u w : nat -> A) : A := ksum g (fun i => u i * w i).
Definition nrm2 (g : nat) (w : nat -> A) : A := dotp g w w.
Definition ksqrt (x : A) : A := kfn FSqrt x.
Definition half : A := k1 / (k1 + k1).
(* (pseudo-)determinant and (pseudo-)inverse of a g x n matrix of full column rank *)
Definition pdet (g n : nat) (M : nat -> nat -> A) : A :=
  if Nat.eqb n g then det n M else ksqrt (det n (gram g M)).
Definition pinv (g n : nat) (M : nat -> nat -> A) (i j : nat) : A :=
  if Nat.eqb n g then adjugate n M i j / det n M
  else ksum n (fun k => adjugate n (gram g M) i k / det n (gram g M) * M j k).
Definition cross3 (a b : nat -> A) (i : nat) : A :=
  a ((i + 1) mod 3) * b ((i + 2) mod 3) - a ((i + 2) mod 3) * b ((i + 1) mod 3).

(* ---- reference-cell convention table (trusted) ------------------------------------------- *)
Definition Xref (k i : nat) : A := if Nat.eqb k (S i) then k1 else k0.   (* vertex k of the reference simplex *)
Definition edge (t e : nat) : nat * nat :=
  match t, e with
  | 2, 0 => (1, 2) | 2, 1 => (0, 2) | 2, _ => (0, 1)
  | 3, 0 => (2, 3) | 3, 1 => (1, 3) | 3, 2 => (1, 2) | 3, 3 => (0, 3) | 3, 4 => (0, 2) | 3, _ => (0, 1)
  | _, _ => (0, 1)
  end.
Definition fv (f k : nat) : nat := skip f k.                  (* k-th vertex of facet f (t >= 2) *)
Definition cfj (f i j : nat) : A := Xref (fv f (S j)) i - Xref (fv f 0) i.       (* CellFacetJacobian *)
Definition crj (r i : nat) : A := Xref (snd (edge 3 r)) i - Xref (fst (edge 3 r)) i.  (* CellRidgeJacobian, tet *)
Definition rn (t f i : nat) : A :=                             (* ReferenceNormal *)
  match t with
  | 1 => if Nat.eqb f 0 then - k1 else k1
  | _ => match f with O => rd | S f' => if Nat.eqb i f' then - k1 else k0 end
  end.
Definition r0 (t : nat) : A := k1 / of_nat (fact t).          (* reference volume of a t-simplex *)

(* ---- the cell from its vertices ----------------------------------------------------------- *)
Definition Jm (i j : nat) : A := V (S j) i - V 0 i.                        (* Jacobian *)
Definition xphys (t i : nat) : A := V 0 i + ksum t (fun k => Jm i k * Xr k). (* x = v0 + J X *)
Definition FJm (f i j : nat) : A := V (fv f (S j)) i - V (fv f 0) i.       (* facet Jacobian *)
Definition evec (t e i : nat) : A := V (snd (edge t e)) i - V (fst (edge t e)) i.      (* cell edge e *)
Definition fevec (f e i : nat) : A :=                                      (* edge e of tetrahedron facet f *)
  V (fv f (snd (edge 2 e))) i - V (fv f (fst (edge 2 e))) i.
Definition vvec (a b i : nat) : A := V b i - V a i.
Definition vlen (g a b : nat) : A := ksqrt (nrm2 g (vvec a b)).            (* |v_b - v_a| *)
Definition nedges (t : nat) : nat := match t with 2 => 3 | 3 => 6 | _ => 1 end.

(* ---- the geometric quantities, from the vertices ------------------------------------------- *)
Definition detJ (t g : nat) : A :=
  if Nat.eqb t g then det t Jm else co * ksqrt (det t (gram g Jm)).
Definition Kinv (t g : nat) : nat -> nat -> A := pinv g t Jm.
Definition vol (t g : nat) : A := kabs (r0 t * detJ t g).
Definition fdetJ (t g f : nat) : A := pdet g (t - 1) (FJm f).
Definition farea (t g f : nat) : A :=
  match t with 1 => k1 | _ => kabs (r0 (t - 1) * fdetJ t g f) end.
Definition elen (t g e : nat) : A := ksqrt (nrm2 g (evec t e)).
Definition heron (la lb lc : A) : A :=
  let s := (la + lb + lc) * half in ksqrt (s * (s - la) * (s - lb) * (s - lc)).
Definition circ (t g : nat) : A :=
  match t with
  | 1 => half * vol 1 g
  | 2 => vlen g 1 2 * vlen g 0 2 * vlen g 0 1 / (of_nat 4 * vol 2 g)
  | _ => (* Crelle: 6 V R = area of the triangle whose sides are the products of opposite edges *)
         heron (vlen g 0 3 * vlen g 1 2) (vlen g 0 2 * vlen g 1 3) (vlen g 0 1 * vlen g 2 3)
         / (of_nat 6 * vol 3 g)
  end.
(* min / max over the squared lengths of the edges 0..n-1 (left fold, as the code reduces) *)
Fixpoint fold_edges (op : A -> A -> A) (len2 : nat -> A) (n : nat) : A :=
  match n with
  | O => len2 0
  | S O => len2 0
  | S m => op (fold_edges op len2 m) (len2 m)
  end.
Definition cell_edge_ext (op : A -> A -> A) (t g : nat) : A :=
  match t with
  | 1 => vol 1 g
  | _ => ksqrt (fold_edges op (fun e => nrm2 g (evec t e)) (nedges t))
  end.
Definition facet_edge_ext (op : A -> A -> A) (g f : nat) : A :=
  ksqrt (fold_edges op (fun e => nrm2 g (fevec f e)) 3).
(* normals *)
Definition cnraw (g : nat) (i : nat) : A :=
  match g with
  | 2 => match i with O => - Jm 1 0 | _ => Jm 0 0 end
  | _ => cross3 (fun k => Jm k 0) (fun k => Jm k 1) i
  end.
Definition cnormal (g i : nat) : A := co * cnraw g i / ksqrt (nrm2 g (cnraw g)).
Definition ndir (t g f i : nat) : A := ksum t (fun j => Kinv t g j i * rn t f j).
Definition fnormal (t g f i : nat) : A :=
  match t with
  | 1 => rn 1 f 0 * Jm i 0 / (match g with 1 => kabs (Jm 0 0) | _ => ksqrt (nrm2 g (fun k => Jm k 0)) end)
  | _ => ndir t g f i / ksqrt (nrm2 g (ndir t g f))
  end.
(* convertible with [Facts.delta] and [C09_algebra.dl]: C07_normals.v passes between them by conversion *)
Definition delta (i j : nat) : A := if Nat.eqb i j then k1 else k0.

(* ---- reading of the terminals that remain after lowering ----------------------------------- *)
(* terminal kinds as numbered by py/ufl2coq.py (asserted equal at run time by py/props/C07.py):
   10 SpatialCoordinate, 14 CellOrigin, 22 CellFacetJacobian, 23 CellRidgeJacobian,
   28 CellEdgeVectors, 29 FacetEdgeVectors, 42 ReferenceNormal, 43 ReferenceCellVolume,
   44 ReferenceFacetVolume, 54 CellOrientation *)
Variable env : side -> nat -> nat -> list nat -> A.
Variable DX : nat -> A -> A.
Record interp (t g f r : nat) : Prop := {
  i_J   : forall s i j, DX j (env s 10 0 [i]) = Jm i j;
  i_x   : forall s i, env s 10 0 [i] = xphys t i;
  i_x0  : forall s i, env s 14 0 [i] = V 0 i;
  i_cfj : forall s i j, env s 22 0 [i; j] = cfj f i j;
  i_crj : forall s i j, env s 23 0 [i; j] = crj r i;     (* a ridge of a tetrahedron is an edge: one column *)
  i_cev : forall s e i, env s 28 0 [e; i] = evec t e i;
  i_fev : forall s e i, env s 29 0 [e; i] = fevec f e i;
  i_rn  : forall s i, env s 42 0 [i] = rn t f i;
  i_rcv : forall s, env s 43 0 [] = r0 t;
  i_rfv : forall s, env s 44 0 [] = r0 (t - 1);
  i_co  : forall s, env s 54 0 [] = co;
}.

(* ---- sanity of the convention table -------------------------------------------------------- *)
Ltac nrm := cbv -[K k0 k1 kadd kmul ksub kopp kdiv kinv].

(* each reference normal is orthogonal to its reference facet and points away from the opposite
   vertex: rn . (X_w - X_w0) = 0 for facet vertices w, rn . (X_f - X_w0) = -(scale), scale = rd or 1 *)
Definition rn_scale (f : nat) : A := match f with O => rd | _ => k1 end.
Lemma rn_tangent_tri f j : f < 3 -> j < 1 -> dotp 2 (rn 2 f) (fun i => cfj f i j) = k0.
Proof. intros Hf Hj. destruct f as [|[|[|f]]]; try lia; destruct j; try lia; nrm; ring. Qed.
Lemma rn_tangent_tet f j : f < 4 -> j < 2 -> dotp 3 (rn 3 f) (fun i => cfj f i j) = k0.
Proof. intros Hf Hj. destruct f as [|[|[|[|f]]]]; try lia; destruct j as [|[|j]]; try lia; nrm; ring. Qed.
Lemma rn_outward_tri f : f < 3 ->
  dotp 2 (rn 2 f) (fun i => Xref f i - Xref (fv f 0) i) = - rn_scale f.
Proof. intros Hf. destruct f as [|[|[|f]]]; try lia; nrm; ring. Qed.
Lemma rn_outward_tet f : f < 4 ->
  dotp 3 (rn 3 f) (fun i => Xref f i - Xref (fv f 0) i) = - rn_scale f.
Proof. intros Hf. destruct f as [|[|[|[|f]]]]; try lia; nrm; ring. Qed.

End Geo.

(* opposite edges of the tetrahedron table share no vertex: (0,5) (1,4) (2,3) *)
Lemma tet_opposite_edges :
  forall e, e < 3 ->
    let a := edge 3 e in let b := edge 3 (5 - e) in
    fst a <> fst b /\ fst a <> snd b /\ snd a <> fst b /\ snd a <> snd b.
Proof. intros e He. destruct e as [|[|[|e]]]; try lia; cbn; repeat split; lia. Qed.

Print Assumptions rn_outward_tet.
Print Assumptions tet_opposite_edges.
