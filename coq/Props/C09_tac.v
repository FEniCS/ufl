(* C09 - the tactics of the generated obligations den (cancel_jacobian_products e) = den e.

   After normalisation such an obligation is an equation between polynomial expressions in the
   entries of J, of K and of the other operands, under the traced hypotheses K_ij = (entry of the
   (pseudo-)inverse of J) and D <> 0 for the (Gram) determinant D.  Either it holds for every K, or
   the entries of K are replaced and [field] closes it.  The operations of the algebra, [env], the
   uninterpreted symbols and [char0] are Section variables of the generated files and are passed as
   arguments. *)
Require Import UFLV.Core.Tac.

(* Every hypothesis that is an equation or a disequation is normalised, once. *)
Ltac norm_all :=
  repeat match goal with
         | H : _ = _ |- _ => revert H
         | H : _ <> _ |- _ => revert H
         end;
  repeat (let H := fresh "H" in intro H; norm_hyp H).

(* A sum D that is assumed non-zero (the determinant) gets a name d, with Hd : d = D.  The entries of
   the (pseudo-)inverse are then quotients by the atom d, the equation to prove stays small, and
   [field [Hd]] puts D back only inside the polynomial normal forms it compares. *)
Ltac name_det add z0 :=
  match goal with
  | H : add ?X ?Y <> z0 |- _ =>
      let d := fresh "d" in let Hd := fresh "Hd" in remember (add X Y) as d eqn:Hd in *
  end.
Ltac fld :=
  match goal with
  | Hd : ?d = _ |- _ => is_var d; first [ field [Hd] | fail 2 ]
  | _ => field
  end.
Ltac fin char0 := first [ reflexivity | ring | fld; nz_solve char0 ].

(* [unify_arg] of Core/Tac.v, except that a pair X, Y with [atom X] and [atom Y] is not tried: two
   different atoms are never equal, and a goal has many such pairs (D_j applied to components). *)
Ltac unify_arg_na atom g tac :=
  match goal with
  | |- context [g ?X] =>
      match goal with
      | |- context [g ?Y] =>
          lazymatch X with Y => fail | _ => idtac end;
          tryif (atom X; atom Y) then fail else replace (g X) with (g Y) by (f_equal; tac)
      end
  end.
Ltac unify_args_na atom fn abs conj Dx DX tac :=
  first [ unify_arg_na atom conj tac
        | unify_arg_na atom abs tac
        | match goal with |- context [fn ?f _] => unify_arg_na atom (fn f) tac end
        | match goal with |- context [Dx ?j _] => unify_arg_na atom (Dx j) tac end
        | match goal with |- context [DX ?j _] => unify_arg_na atom (DX j) tac end ].

(* The entries of K are replaced by those of the (pseudo-)inverse of J, which are quotients; the
   arguments of uninterpreted symbols are unified only if [field] does not close the goal as it is. *)
Ltac rew_env env :=
  repeat match goal with
         | H : env _ _ _ _ = _ |- _ => rewrite !H; clear H
         end.
Ltac expand env fn abs conj Dx DX char0 :=
  rew_env env;
  first [ fld; nz_solve char0
        | ring
        | repeat unify_args_na ltac:(fun X => lazymatch X with env _ _ _ _ => idtac end)
                               fn abs conj Dx DX ltac:(fin char0);
          fin char0 ].

(* [kjc_with]: K is expanded only if the equation does not hold for every K, and the hypotheses are
   touched only if it is not a ring identity.  [kjx_with]: the pass has removed entries of K, so they
   are expanded at once. *)
Ltac kjc_with add z0 env fn abs conj Dx DX char0 :=
  norm_goal;
  first [ reflexivity | ring
        | norm_all;
          first [ fld; nz_solve char0
                | name_det add z0; expand env fn abs conj Dx DX char0
                | expand env fn abs conj Dx DX char0 ] ].
Ltac kjx_with add z0 env fn abs conj Dx DX char0 :=
  norm_all; norm_goal;
  first [ name_det add z0; expand env fn abs conj Dx DX char0
        | expand env fn abs conj Dx DX char0 ].
