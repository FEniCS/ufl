(* C19 - map_expr_dag (ufl/corealg/map_dag.py): memoised, optionally compressed application of a
   handler over the unique post-order traversal equals the plain recursive map over the tree,
   for ALL trees, all pure handlers, both values of `compress`, arbitrary (sound) vcache and
   arbitrary rcache arguments. *)
Require Import List Arith Lia Bool.
Require Import UFLV.Props.C19_tree UFLV.Props.C19_post UFLV.Props.C19_traversal.
Import ListNotations.

Section Map.
Variable R : Type.
Variable req : R -> R -> bool.             (* Python `==`/hash on results (dict key comparison) *)
Variable f : tree -> list R -> R.          (* handler(v, *results of operands) *)
Variable g : tree -> R.                    (* cut-off handler(v): handles its own operands *)
Variable cut : nat -> bool.                (* function._is_cutoff_type[typecode] *)
Variable has_cut : bool.                   (* any(cutoff_types) selects the traversal *)
Hypothesis has_cut_false : has_cut = false -> forall l, cut l = false.

Definition eqv (a b : R) : Prop := req a b = true.
Hypothesis eqv_refl : forall a, eqv a a.
Hypothesis eqv_sym : forall a b, eqv a b -> eqv b a.
Hypothesis eqv_trans : forall a b c, eqv a b -> eqv b c -> eqv a c.
Hypothesis f_congr : forall v rs rs', Forall2 eqv rs rs' -> eqv (f v rs) (f v rs').

(* the specification: plain recursion over the tree *)
Fixpoint map_tree (t : tree) : R :=
  match t with Node l cs => if cut l then g (Node l cs) else f (Node l cs) (map map_tree cs) end.

Lemma map_tree_unfold : forall t,
  map_tree t = if cut (label t) then g t else f t (map map_tree (ops t)).
Proof. destruct t; reflexivity. Qed.

Definition vcache := list (tree * R).
Definition rcache := list R.

Fixpoint vlookup (x : tree) (c : vcache) : option R :=
  match c with
  | [] => None
  | (k, r) :: rest => if tree_eq_dec x k then Some r else vlookup x rest
  end.

Fixpoint rlookup (r : R) (c : rcache) : option R :=
  match c with
  | [] => None
  | r2 :: rest => if req r2 r then Some r2 else rlookup r rest
  end.

(* `(vcache[u] for u in v.ufl_operands)`; None = KeyError *)
Fixpoint gather (vc : vcache) (cs : list tree) : option (list R) :=
  match cs with
  | [] => Some []
  | c :: r => match vlookup c vc, gather vc r with
              | Some x, Some xs => Some (x :: xs)
              | _, _ => None
              end
  end.

(* body of `for v in traversal(expression):` *)
Definition mstep (compress : bool) (s : vcache * rcache) (v : tree) : option (vcache * rcache) :=
  let (vc, rc) := s in
  match vlookup v vc with
  | Some _ => Some s
  | None =>
      match (if cut (label v) then Some (g v) else option_map (f v) (gather vc (ops v))) with
      | None => None
      | Some r =>
          if compress
          then match rlookup r rc with
               | Some r2 => Some ((v, r2) :: vc, rc)
               | None => Some ((v, r) :: vc, rc ++ [r])
               end
          else Some ((v, r) :: vc, rc)
      end
  end.

Fixpoint mfold (compress : bool) (o : list tree) (s : vcache * rcache) : option (vcache * rcache) :=
  match o with
  | [] => Some s
  | v :: r => match mstep compress s v with Some s' => mfold compress r s' | None => None end
  end.

Definition traversal (t : tree) : option (list tree * list tree) :=
  if has_cut then cutoff_unique_post_traversal cut t [] else unique_post_traversal t [].

Definition map_expr_dag (compress : bool) (t : tree) (vc0 : vcache) (rc0 : rcache) : option R :=
  match traversal t with
  | None => None
  | Some (o, _) => match mfold compress o (vc0, rc0) with
                   | None => None
                   | Some (vc, _) => vlookup t vc
                   end
  end.

(* variants used by the correspondence with the implementation: final caches, and the list of nodes
   on which the handler is actually invoked (cache misses), in order *)
Definition map_expr_dag_st (compress : bool) (t : tree) (vc0 : vcache) (rc0 : rcache)
  : option (option R * vcache * rcache) :=
  match traversal t with
  | None => None
  | Some (o, _) => match mfold compress o (vc0, rc0) with
                   | None => None
                   | Some (vc, rc) => Some (vlookup t vc, vc, rc)
                   end
  end.

Fixpoint mcalls (compress : bool) (o : list tree) (s : vcache * rcache) : option (list tree) :=
  match o with
  | [] => Some []
  | v :: r => match mstep compress s v with
              | None => None
              | Some s' => option_map (fun l => match vlookup v (fst s) with None => v :: l | Some _ => l end)
                                      (mcalls compress r s')
              end
  end.

Definition handler_calls (compress : bool) (t : tree) (vc0 : vcache) (rc0 : rcache) : option (list tree) :=
  match traversal t with None => None | Some (o, _) => mcalls compress o (vc0, rc0) end.

Definition vc_ok (vc : vcache) : Prop := forall x r, vlookup x vc = Some r -> eqv r (map_tree x).

Lemma rlookup_eqv : forall r rc r2, rlookup r rc = Some r2 -> eqv r2 r.
Proof.
  induction rc; simpl; intros; [discriminate|].
  destruct (req a r) eqn:E; [inversion H; subst; exact E|auto].
Qed.

Lemma gather_ok : forall vc, vc_ok vc -> forall cs, (forall c, In c cs -> vlookup c vc <> None) ->
  exists rs, gather vc cs = Some rs /\ Forall2 eqv rs (map map_tree cs).
Proof.
  intros vc Hok. induction cs as [|c r IH]; intros Hdom; simpl.
  - exists []. split; auto.
  - destruct (vlookup c vc) as [x|] eqn:E; [|exfalso; apply (Hdom c); simpl; auto].
    destruct IH as (rs & Hg & Hf2); [intros; apply Hdom; simpl; auto|].
    rewrite Hg. exists (x :: rs). split; auto.
Qed.

Lemma vc_ok_cons : forall vc v r, vc_ok vc -> eqv r (map_tree v) -> vc_ok ((v, r) :: vc).
Proof.
  intros vc v r Hok Hr x r0. simpl. destruct (tree_eq_dec x v) as [->|Hn].
  - intros H; inversion H; subst; auto.
  - apply Hok.
Qed.

Lemma vlookup_cons_dom : forall vc v r x, (x = v \/ vlookup x vc <> None) -> vlookup x ((v, r) :: vc) <> None.
Proof.
  intros. simpl. destruct (tree_eq_dec x v); [discriminate|]. destruct H; [contradiction|auto].
Qed.

(* one turn of the loop on a node whose operands (unless it is cut off) have their results cached *)
Lemma mstep_ok : forall compress vc rc v, vc_ok vc ->
  (cut (label v) = false -> forall c, In c (ops v) -> vlookup c vc <> None) ->
  exists vc' rc', mstep compress (vc, rc) v = Some (vc', rc') /\ vc_ok vc' /\
                  (forall x, x = v \/ vlookup x vc <> None -> vlookup x vc' <> None).
Proof.
  intros compress vc rc v Hok Hops. unfold mstep. destruct (vlookup v vc) as [rv|] eqn:Ev.
  { exists vc, rc. split; [reflexivity|]. split; [exact Hok|]. intros x [->|Hx]; congruence. }
  assert (Hr : exists r0, (if cut (label v) then Some (g v) else option_map (f v) (gather vc (ops v)))
                          = Some r0 /\ eqv r0 (map_tree v)).
  { rewrite (map_tree_unfold v). destruct (cut (label v)) eqn:Hc.
    - exists (g v). split; auto.
    - destruct (gather_ok vc Hok (ops v) (Hops eq_refl)) as (rs & Hg & Hf2).
      rewrite Hg. simpl. exists (f v rs). split; auto. }
  destruct Hr as (r0 & -> & Hr0).
  destruct compress; [destruct (rlookup r0 rc) as [r2|] eqn:Er|]; eexists _, _;
    (split; [reflexivity|split; [apply vc_ok_cons; [exact Hok|]|apply vlookup_cons_dom]]); try exact Hr0.
  eapply eqv_trans; [eapply rlookup_eqv, Er|exact Hr0].
Qed.

(* o1: the nodes done, o2: the nodes to do; in o1 ++ o2 every node that is not cut off comes after
   its operands *)
Lemma mfold_ok : forall compress o2 o1 vc rc,
  vc_ok vc ->
  (forall x, In x o1 -> vlookup x vc <> None) ->
  (forall p x s, o1 ++ o2 = p ++ x :: s -> cut (label x) = false -> forall c, In c (ops x) -> In c p) ->
  exists vc' rc', mfold compress o2 (vc, rc) = Some (vc', rc') /\ vc_ok vc' /\
                  (forall x, In x (o1 ++ o2) -> vlookup x vc' <> None).
Proof using eqv_refl eqv_sym eqv_trans f_congr.
  intros compress. induction o2 as [|v r IH]; intros o1 vc rc Hok Hdom Hord.
  - exists vc, rc. rewrite app_nil_r. simpl. auto.
  - destruct (mstep_ok compress vc rc v Hok) as (vc1 & rc1 & Hs & Hok1 & Hdom1).
    { intros Hcut c Hc. apply Hdom. exact (Hord o1 v r eq_refl Hcut c Hc). }
    assert (Hre : o1 ++ v :: r = (o1 ++ [v]) ++ r) by (rewrite <- app_assoc; reflexivity).
    cbn [mfold]. rewrite Hs, Hre. apply IH; [exact Hok1| |rewrite <- Hre; exact Hord].
    intros x Hx. apply Hdom1. apply in_app_or in Hx. destruct Hx as [Hx|[<-|[]]]; auto.
Qed.

(* what C19_unique_post and C19_cutoff_unique_post say of [traversal] *)
Lemma traversal_props : forall t, exists o v, traversal t = Some (o, v) /\ NoDup o /\
  (forall o1 x o2, o = o1 ++ x :: o2 -> cut (label x) = false -> forall c, In c (ops x) -> In c o1) /\
  (exists o', o = o' ++ [t]).
Proof using has_cut_false.
  intros t. unfold traversal. destruct has_cut.
  - destruct (C19_cutoff_unique_post cut t) as (o & v & H1 & H2 & _ & H3 & H4). exists o, v. auto.
  - destruct (C19_unique_post t) as (o & v & H1 & H2 & _ & H3 & H4). exists o, v.
    repeat split; auto. intros; eapply H3; eauto.
Qed.

(* C19_map: for every tree, the memoised (and optionally compressed) DAG mapping returns a result
   and it is the plain recursive map of the handler over the tree, up to result equality. *)
Theorem C19_map : forall compress t vc0 rc0, vc_ok vc0 ->
  exists r, map_expr_dag compress t vc0 rc0 = Some r /\ eqv r (map_tree t).
Proof using has_cut_false eqv_refl eqv_sym eqv_trans f_congr.
  intros compress t vc0 rc0 Hok. unfold map_expr_dag.
  destruct (traversal_props t) as (o & v & -> & _ & Hord & (o' & Ho')).
  destruct (mfold_ok compress o [] vc0 rc0 Hok) as (vc & rc & -> & Hok' & Hdom); [intros x []|exact Hord|].
  destruct (vlookup t vc) as [r|] eqn:E.
  - exists r. split; auto.
  - exfalso. apply (Hdom t); [|exact E]. rewrite Ho'. apply in_elt.
Qed.
End Map.

(* a result comparison that decides Leibniz equality satisfies the hypotheses of Section Map *)
Lemma eqv_of_eq : forall (R : Type) (req : R -> R -> bool) (f : tree -> list R -> R),
  (forall a b, req a b = true <-> a = b) ->
  (forall a, eqv R req a a) /\ (forall a b, eqv R req a b -> eqv R req b a) /\
  (forall a b c, eqv R req a b -> eqv R req b c -> eqv R req a c) /\
  (forall v rs rs', Forall2 (eqv R req) rs rs' -> eqv R req (f v rs) (f v rs')).
Proof.
  unfold eqv. intros R req f Hreq. repeat split.
  - intros a. apply Hreq. reflexivity.
  - intros a b H. apply Hreq. apply Hreq in H. congruence.
  - intros a b c H1 H2. apply Hreq. apply Hreq in H1, H2. congruence.
  - intros v rs rs' H. apply Hreq. f_equal. induction H as [|x y l l' H]; [reflexivity|].
    apply Hreq in H. congruence.
Qed.

(* With results compared by Leibniz equality the mapped result IS the recursive map. *)
Theorem C19_map_exact : forall (R : Type) (req : R -> R -> bool) f g cut has_cut,
  (has_cut = false -> forall l, cut l = false) ->
  (forall a b, req a b = true <-> a = b) ->
  forall compress t rc0,
  map_expr_dag R req f g cut has_cut compress t [] rc0 = Some (map_tree R f g cut t).
Proof.
  intros R req f g cut has_cut Hc Hreq compress t rc0.
  destruct (eqv_of_eq R req f Hreq) as (E1 & E2 & E3 & E4).
  destruct (C19_map R req f g cut has_cut Hc E1 E2 E3 E4 compress t [] rc0) as (r & Hr & He).
  - intros x r0 H. discriminate.
  - rewrite Hr. f_equal. apply Hreq, He.
Qed.

Print Assumptions C19_map.
Print Assumptions C19_map_exact.
