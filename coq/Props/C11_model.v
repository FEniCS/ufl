(** * C11 - forms with different compiled meaning never share a signature

    Model of ufl/algorithms/signature.py (compute_terminal_hashdata / compute_multiindex_hashdata /
    compute_expression_hashdata / compute_form_signature) and ufl/utils/sorting.py:canonicalize_metadata
    as functions into a datatype of rendered tokens.  [H] stands for "str(data).encode() |> sha512": it is
    a Section variable; soundness is proved from the HYPOTHESIS that it is injective on tokens (a SHA-512
    collision or an ambiguity of Python's str() of nested tuples/lists is outside the proof), completeness
    needs nothing.  Expression trees are those of C29_model.v (after the canonical renumbering of
    C12_model.v: counts in the trees are the renumbered ones).

    - [C11_complete]: trees equal up to what the hash data ignores have equal hashes; equal forms, equal sig;
    - [C11_ehash_inj], [C11_thd_inj], [C11_sound]: equal signature => integrand (stripped tree), domain
      data, integral type, subdomain id and CANONICALISED metadata agree, integral by integral;
    - [canon_md], the str() rendering of canonicalize_metadata in the pinned tree:
      [C11_canon_md_inj_typed]: injective on metadata of equal type skeleton (given injective str() of ints
      and of arrays); refuted without the type skeleton ([C11_metadata_untyped_refuted]: 3 vs "3", None vs
      "None", list vs tuple) and for arrays whenever str(ndarray) is not injective
      ([C11_signature_collision_from_array_str]: two forms with different metadata, equal signature);
    - [canon_md2 true], the rendering of /repo (repr() of leaves, a sequence tagged with its type name):
      injective ([C11_canon_md2_inj], [C11_canon_md2_inj_tagged], [C11_repaired_leaves_distinct]); without
      the tag list and tuple are still identified ([C11_repaired_sequence_type_refuted]).
    [integral_tok] and [meaning] are written with [canon_md]; the proofs of C11_sound and C11_complete never
    look inside that token, so for them it does not matter which canonicaliser it is. *)

From Coq Require Import String Ascii ZArith NArith Bool PeanoNat List.
From UFLV Require Import Props.C29_model.
Import ListNotations.
Open Scope N_scope.

Section Sig.
  Variable D : Type.                                  (* digests *)

  Inductive tok :=
  | KStr (s : string) | KInt (z : Z) | KNat (n : N) | KDig (d : D) | KTup (l : list tok).

  Variable H : tok -> D.                               (* sha512 (str data) *)

  (** ** terminal hash data (_ufl_signature_data_ / compute_multiindex_hashdata) *)
  Definition idx_tok (i : idx) : tok :=
    match i with
    | Fixed v => KInt (Z.of_N v)                       (* nonnegative ints for FixedIndex *)
    | Free c => KInt (- Z.of_N c - 1)                  (* -(number+1) for the renumbered Index *)
    end.

  Definition part_tok (p : option N) : tok := match p with None => KStr "None" | Some n => KNat n end.

  Definition thd (d : tdata) : tok :=
    match d with
    | TMulti l => KTup (map idx_tok l)
    | TArg n p fs => KTup [KStr "Argument"; KNat n; part_tok p; KNat fs]
    | TCoef c fs => KTup [KStr "Coefficient"; KNat c; KNat fs]
    | TLabel c => KTup [KStr "Label"; KNat c]
    | TRepr ps => KStr (render ps)                     (* repr / f-string signature data *)
    | TGeo k m => KTup [KStr "Geo"; KStr k; KNat m]    (* (class name,) + domain signature data; "Geo" is the
                                                          model's own tag, which keeps this case apart from the others *)
    end.

  (* of a TRepr only the rendered string is hashed: the hash data determine it up to its rendering *)
  Definition norm_tdata (d : tdata) : tdata :=
    match d with TRepr ps => TRepr [PLit (render ps)] | _ => d end.

  Lemma idx_tok_inj i j : idx_tok i = idx_tok j -> i = j.
  Proof.
    destruct i as [v|c], j as [v'|c']; simpl; intro E; injection E as E.
    - apply N2Z.inj in E. congruence.
    - destruct v, c'; discriminate E.
    - destruct c, v'; discriminate E.
    - apply Z.sub_cancel_r, Z.opp_inj, N2Z.inj in E. congruence.
  Qed.

  Lemma part_tok_inj p q : part_tok p = part_tok q -> p = q.
  Proof. destruct p, q; simpl; intro E; try reflexivity; try discriminate. injection E as E. congruence. Qed.

  (* a multi-index against a tagged tuple: the first element is an int, not a string *)
  Lemma idx_tup_untagged l s r : KTup (map idx_tok l) <> KTup (KStr s :: r).
  Proof. destruct l as [|[] l]; discriminate. Qed.

  Theorem C11_thd_inj : forall d e, thd d = thd e -> norm_tdata d = norm_tdata e.
  Proof.
    intros d e E.
    destruct d as [l | n p fs | c fs | c | ps | k m], e as [l' | n' p' fs' | c' fs' | c' | ps' | k' m'];
      cbn [thd] in E; try discriminate E;
      try (exfalso; exact (idx_tup_untagged _ _ _ E)); try (exfalso; exact (idx_tup_untagged _ _ _ (eq_sym E)));
      cbn [norm_tdata].
    - injection E as E. f_equal. apply (map_inj idx_tok idx_tok_inj), E.
    - injection E as E1 E2 E3. apply part_tok_inj in E2. congruence.
    - injection E as E1 E2. congruence.
    - injection E as E1. congruence.
    - injection E as E1. rewrite E1. reflexivity.
    - injection E as E1 E2. congruence.
  Qed.

  Lemma thd_norm d : thd (norm_tdata d) = thd d.
  Proof. destruct d; reflexivity. Qed.

  (** ** expression hash data: post-order, a terminal hashes [data], an operator [typecode, hashes...] *)
  Fixpoint ehash (t : tree) : D :=
    match t with
    | Leaf _ d => H (KTup [thd d])
    | Node tc ops => H (KTup (KNat tc :: map (fun o => KDig (ehash o)) ops))
    end.

  (** what the hash data can see of a tree: terminals lose their type code (it is not hashed) and keep
      their signature data *)
  Fixpoint strip (t : tree) : tree :=
    match t with
    | Leaf _ d => Leaf 0 (norm_tdata d)
    | Node tc ops => Node tc (map strip ops)
    end.

  Theorem C11_complete_expr : forall a b, strip a = strip b -> ehash a = ehash b.
  Proof.
    induction a as [ta da | ta oa IH] using tree_ind'; intros [tb db | tb ob] E; simpl in *; try discriminate.
    - injection E as E. rewrite <- (thd_norm da), E, thd_norm. reflexivity.
    - injection E as E1 E2. subst. do 3 f_equal. revert E2. apply map_rel_Forall.
      eapply Forall_impl; [|exact IH]. intros x Hx y Q. f_equal. apply Hx, Q.
  Qed.

  Hypothesis H_inj : forall x y, H x = H y -> x = y.

  Theorem C11_ehash_inj : forall a b, ehash a = ehash b -> strip a = strip b.
  Proof.
    induction a as [ta da | ta oa IH] using tree_ind'; intros [tb db | tb ob] E; simpl in *;
      apply H_inj in E.
    - injection E as E. rewrite (C11_thd_inj _ _ E). reflexivity.
    - injection E as E1 E2. destruct da; discriminate.
    - injection E as E1 E2. destruct db; discriminate.
    - injection E as E1 E2. subst. f_equal. revert E2. apply map_rel_Forall.
      eapply Forall_impl; [|exact IH]. intros x Hx y Q. injection Q as Q. apply Hx, Q.
  Qed.

  (** ** metadata: canonicalize_metadata *)
  Variable Arr : Type.                                 (* numpy arrays *)
  Variable str_arr : Arr -> string.                    (* str(ndarray) *)
  Variable str_int : Z -> string.                      (* str(int) *)
  Variable str_float : string -> string.               (* floats are given by their repr; str = repr *)

  Inductive mval :=
  | MInt (z : Z) | MFloat (r : string) | MStr (s : string) | MNone | MBool (b : bool)
  | MArr (a : Arr)
  | MSeq (is_list : bool) (l : list mval)             (* list or tuple *)
  | MDict (l : list (string * mval)).                 (* keys already sorted *)

  Fixpoint canon_md (m : mval) : tok :=
    match m with
    | MInt z => KStr (str_int z)
    | MFloat r => KStr (str_float r)
    | MStr s => KStr s
    | MNone => KStr "None"
    | MBool b => KStr (if b then "True" else "False")
    | MArr a => KStr (str_arr a)
    | MSeq _ l => KTup (map canon_md l)
    | MDict l => KTup (map (fun kv => KTup [KStr (fst kv); canon_md (snd kv)]) l)
    end.

  (** same type skeleton (the information canonicalize_metadata drops) *)
  Fixpoint same_type (a b : mval) : bool :=
    match a, b with
    | MInt _, MInt _ | MFloat _, MFloat _ | MStr _, MStr _ | MNone, MNone | MBool _, MBool _
    | MArr _, MArr _ => true
    | MSeq f1 l1, MSeq f2 l2 =>
        Bool.eqb f1 f2 &&
        (fix go (l1 l2 : list mval) : bool :=
           match l1, l2 with
           | [], [] => true
           | x :: l1', y :: l2' => same_type x y && go l1' l2'
           | _, _ => false
           end) l1 l2
    | MDict l1, MDict l2 =>
        (fix go (l1 l2 : list (string * mval)) : bool :=
           match l1, l2 with
           | [], [] => true
           | (_, x) :: l1', (_, y) :: l2' => same_type x y && go l1' l2'
           | _, _ => false
           end) l1 l2
    | _, _ => false
    end.

  Lemma mval_ind' (P : mval -> Prop) :
    (forall z, P (MInt z)) -> (forall r, P (MFloat r)) -> (forall s, P (MStr s)) -> P MNone ->
    (forall b, P (MBool b)) -> (forall a, P (MArr a)) ->
    (forall f l, Forall P l -> P (MSeq f l)) ->
    (forall l, Forall (fun kv => P (snd kv)) l -> P (MDict l)) ->
    forall m, P m.
  Proof.
    intros H1 H2 H3 H4 H5 H6 H7 H8. fix IH 1. intros [z | r | s | | b | a | f l | l].
    - apply H1. - apply H2. - apply H3. - apply H4. - apply H5. - apply H6.
    - apply H7. induction l as [|x l IHl]; constructor; [apply IH | exact IHl].
    - apply H8. induction l as [|[k x] l IHl]; constructor; [apply IH | exact IHl].
  Qed.

  Hypothesis str_int_inj : forall x y, str_int x = str_int y -> x = y.
  Hypothesis str_float_inj : forall x y, str_float x = str_float y -> x = y.

  Section TypedInjectivity.
    Hypothesis str_arr_inj : forall x y, str_arr x = str_arr y -> x = y.

    Theorem C11_canon_md_inj_typed : forall a b,
      same_type a b = true -> canon_md a = canon_md b -> a = b.
    Proof.
      induction a as [z | r | s | | b0 | a0 | f l IH | l IH] using mval_ind';
        intros [z' | r' | s' | | b' | a' | f' l' | l'] Ht E; simpl in Ht; try discriminate Ht; simpl in E.
      - injection E as E. f_equal. apply str_int_inj, E.
      - injection E as E. f_equal. apply str_float_inj, E.
      - injection E as E. congruence.
      - reflexivity.
      - destruct b0, b'; try reflexivity; discriminate.
      - injection E as E. f_equal. apply str_arr_inj, E.
      - apply andb_prop in Ht as [Hf Hl]. apply Bool.eqb_prop in Hf. subst. f_equal.
        injection E as E. revert l' Hl E.
        induction IH as [|x l Hx _ IHl]; destruct l' as [|y l']; simpl; intros Hl E; try reflexivity; try discriminate.
        apply andb_prop in Hl as [Hl1 Hl2]. injection E as E1 E2.
        f_equal; [apply Hx; assumption | apply IHl; assumption].
      - f_equal. injection E as E. revert l' Ht E.
        induction IH as [|[k x] l Hx _ IHl]; destruct l' as [|[k' y] l']; simpl; intros Hl E; try reflexivity; try discriminate.
        apply andb_prop in Hl as [Hl1 Hl2]. injection E as E0 E1 E2.
        f_equal; [f_equal; [exact E0 | apply Hx; assumption] | apply IHl; assumption].
    Qed.
  End TypedInjectivity.

  (** without the type skeleton canonicalize_metadata is not injective, whatever str() is *)
  Theorem C11_metadata_untyped_refuted :
    (MInt 3 <> MStr (str_int 3) /\ canon_md (MInt 3) = canon_md (MStr (str_int 3))) /\
    (MNone <> MStr "None" /\ canon_md MNone = canon_md (MStr "None")) /\
    (MBool true <> MStr "True" /\ canon_md (MBool true) = canon_md (MStr "True")) /\
    (MSeq true [MInt 1] <> MSeq false [MInt 1] /\ canon_md (MSeq true [MInt 1]) = canon_md (MSeq false [MInt 1])).
  Proof. repeat split; try discriminate; reflexivity. Qed.

  (** ** the repaired canonicalisation (fixes/C15-canonicalize-metadata.diff): scalar leaves are rendered
      with repr(), arrays with tolist()/dtype/shape; [tag = true] additionally models the extension
      fixes/C11-sequence-type-tag.diff (a list/tuple is prefixed with its type name) *)
  Inductive leaf := LInt (z : Z) | LFloat (r : string) | LStr (s : string) | LNone | LBool (b : bool) | LArr (a : Arr).
  Variable rleaf : leaf -> string.                      (* repr of a leaf / the ndarray rendering *)

  Fixpoint canon_md2 (tag : bool) (m : mval) : tok :=
    match m with
    | MInt z => KStr (rleaf (LInt z))
    | MFloat r => KStr (rleaf (LFloat r))
    | MStr s => KStr (rleaf (LStr s))
    | MNone => KStr (rleaf LNone)
    | MBool b => KStr (rleaf (LBool b))
    | MArr a => KStr (rleaf (LArr a))
    | MSeq f l => KTup ((if tag then [KStr (if f then "list" else "tuple")] else []) ++ map (canon_md2 tag) l)
    | MDict l => KTup (map (fun kv => KTup [KStr (fst kv); canon_md2 tag (snd kv)]) l)
    end.

  (** same CONTAINER skeleton (list vs tuple vs dict); scalar leaves and arrays are unconstrained *)
  Fixpoint container_eq (a b : mval) : bool :=
    match a, b with
    | MSeq f1 l1, MSeq f2 l2 =>
        Bool.eqb f1 f2 &&
        (fix go (l1 l2 : list mval) : bool :=
           match l1, l2 with
           | [], [] => true
           | x :: l1', y :: l2' => container_eq x y && go l1' l2'
           | _, _ => false
           end) l1 l2
    | MDict l1, MDict l2 =>
        (fix go (l1 l2 : list (string * mval)) : bool :=
           match l1, l2 with
           | [], [] => true
           | (_, x) :: l1', (_, y) :: l2' => container_eq x y && go l1' l2'
           | _, _ => false
           end) l1 l2
    | MSeq _ _, _ | MDict _, _ | _, MSeq _ _ | _, MDict _ => false
    | _, _ => true
    end.

  Section RepairedInjectivity.
    (** one injective renderer for all leaves: repr of ints, floats, strs, None, bools and the ndarray
        rendering are injective and have pairwise disjoint images *)
    Hypothesis rleaf_inj : forall x y, rleaf x = rleaf y -> x = y.

    Theorem C11_canon_md2_inj : forall tag a b,
      (tag = true \/ container_eq a b = true) -> canon_md2 tag a = canon_md2 tag b -> a = b.
    Proof.
      intros tag.
      induction a as [z | r | s | | b0 | a0 | f l IH | l IH] using mval_ind';
        intros [z' | r' | s' | | b' | a' | f' l' | l'] Hc E; simpl in E; try reflexivity; try discriminate E;
        try (injection E as E; apply rleaf_inj in E; first [discriminate E | injection E as ->; reflexivity]);
        destruct tag; simpl in E; try discriminate E; try (destruct Hc as [Hc|Hc]; discriminate Hc).
      - (* tagged sequences: the tags give f = f', the elements are injective outright *)
        injection E as Ef E. f_equal; [destruct f, f'; congruence | revert E; apply map_inj_Forall].
        eapply Forall_impl; [|exact IH]. intros x Hx y. apply Hx. left; reflexivity.
      - destruct Hc as [Hc|Hc]; [discriminate Hc|]. simpl in Hc.
        apply andb_prop in Hc as [Hf Hl]. apply Bool.eqb_prop in Hf. subst. f_equal.
        injection E as E. revert l' Hl E.
        induction IH as [|x l Hx _ IHl]; intros [|y l']; simpl; intros Hl E; try reflexivity; try discriminate.
        apply andb_prop in Hl as [Hl1 Hl2]. injection E as E1 E2.
        f_equal; [apply Hx; [right|]; assumption | apply IHl; assumption].
      - (* a tagged sequence starts with a string, a dict with a pair *)
        destruct l' as [|[k v] l']; discriminate E.
      - destruct l as [|[k v] l]; discriminate E.
      - injection E as E. f_equal. revert E. apply map_inj_Forall.
        eapply Forall_impl; [|exact IH]. intros [k v] Hv [k' v'] Q. injection Q as Q1 Q2.
        f_equal; [exact Q1 | apply Hv; [left; reflexivity | exact Q2]].
      - destruct Hc as [Hc|Hc]; [discriminate Hc|]. simpl in Hc. f_equal. injection E as E. revert l' Hc E.
        induction IH as [|[k x] l Hx _ IHl]; intros [|[k' y] l']; simpl; intros Hl E; try reflexivity; try discriminate.
        apply andb_prop in Hl as [Hl1 Hl2]. injection E as E0 E1 E2.
        f_equal; [f_equal; [exact E0 | apply Hx; [right|]; assumption] | apply IHl; assumption].
    Qed.

    (** with the repaired rendering the TYPE of a scalar leaf can no longer be confused ... *)
    Corollary C11_repaired_leaves_distinct :
      canon_md2 false (MInt 3) <> canon_md2 false (MStr (str_int 3)) /\
      canon_md2 false MNone <> canon_md2 false (MStr "None") /\
      canon_md2 false (MBool true) <> canon_md2 false (MStr "True").
    Proof.
      repeat split; intro E; apply (C11_canon_md2_inj false) in E; try discriminate E; right; reflexivity.
    Qed.

    (** ... and with the type tag canonicalisation is injective outright *)
    Corollary C11_canon_md2_inj_tagged : forall a b, canon_md2 true a = canon_md2 true b -> a = b.
    Proof. intros a b. apply C11_canon_md2_inj. left; reflexivity. Qed.
  End RepairedInjectivity.

  (** what the repaired rendering (without the tag) still identifies: list vs tuple, and a dict whose key is
      the repr of a string vs a sequence of (key, value) pairs *)
  Theorem C11_repaired_sequence_type_refuted :
    (MSeq true [MInt 1] <> MSeq false [MInt 1] /\ canon_md2 false (MSeq true [MInt 1]) = canon_md2 false (MSeq false [MInt 1])) /\
    (forall k v, MDict [(rleaf (LStr k), v)] <> MSeq true [MSeq false [MStr k; v]] /\
                 canon_md2 false (MDict [(rleaf (LStr k), v)]) = canon_md2 false (MSeq true [MSeq false [MStr k; v]])).
  Proof. split; [split; [discriminate | reflexivity] | intros k v; split; [discriminate | reflexivity]]. Qed.

  (** ** integrals and forms *)
  Inductive sdid := SInt (z : Z) | SStr (s : string) | STup (l : list Z).   (* subdomain id *)
  Definition sdid_tok (s : sdid) : tok :=
    match s with SInt z => KInt z | SStr s => KStr s | STup l => KTup (map KInt l) end.

  (** [xdoms]: the extra_domain_integral_type_map of a multi-mesh integral (Measure(..., intersect_measures=...)):
      the other meshes the integral intersects, each with the integral type used on it, in the order of
      the domain sort (the order the Integral constructor stores them in) *)
  Record integral := { integrand : tree; dom : N; itype : string; xdoms : list (N * string); sid : sdid; md : mval }.

  Definition xdom_tok (p : N * string) : tok := KTup [KNat (fst p); KStr (snd p)].

  Definition integral_tok (i : integral) : tok :=
    KTup [KDig (ehash (integrand i)); KNat (dom i); KStr (itype i); KTup (map xdom_tok (xdoms i));
          sdid_tok (sid i); canon_md (md i)].
  Definition signature (F : list integral) : D := H (KTup (map integral_tok F)).

  (** the compiled meaning of an integral, as far as the signature can and must see it *)
  Definition meaning (i : integral) : tree * N * string * list (N * string) * sdid * tok :=
    (strip (integrand i), dom i, itype i, xdoms i, sid i, canon_md (md i)).

  Lemma xdom_tok_inj p q : xdom_tok p = xdom_tok q -> p = q.
  Proof. destruct p, q; unfold xdom_tok; simpl; intro E; injection E as E1 E2; congruence. Qed.

  Lemma sdid_tok_inj a b : sdid_tok a = sdid_tok b -> a = b.
  Proof.
    destruct a, b; simpl; intro E; try discriminate; try (injection E as E; congruence).
    injection E as E. f_equal. apply (map_inj KInt); [intros x y Q; injection Q; auto | exact E].
  Qed.

  Lemma meaning_tok i j : meaning i = meaning j -> integral_tok i = integral_tok j.
  Proof.
    unfold meaning, integral_tok. intro E. injection E as Ea Eb Ec Ex Ed Ee.
    rewrite (C11_complete_expr _ _ Ea), Eb, Ec, Ex, Ed, Ee. reflexivity.
  Qed.

  Theorem C11_complete : forall F G, map meaning F = map meaning G -> signature F = signature G.
  Proof. intros F G E. unfold signature. do 2 f_equal. revert E. apply map_rel, meaning_tok. Qed.

  Lemma tok_meaning i j : integral_tok i = integral_tok j -> meaning i = meaning j.
  Proof.
    unfold meaning, integral_tok. intro E. injection E as Ea Eb Ec Ex Ed Ee.
    apply C11_ehash_inj in Ea. apply sdid_tok_inj in Ed. apply (map_inj xdom_tok xdom_tok_inj) in Ex.
    rewrite Ea, Eb, Ec, Ex, Ed, Ee. reflexivity.
  Qed.

  Theorem C11_sound : forall F G, signature F = signature G -> map meaning F = map meaning G.
  Proof.
    intros F G E. unfold signature in E. apply H_inj in E. injection E as E. revert E. apply map_rel, tok_meaning.
  Qed.

  (** in particular: two integrals that differ only in the integral type used on an intersected mesh
      (ds vs dS on the extra domain) have different signatures *)
  Corollary C11_sound_extra_domain_type : forall e dm it sd m d t t' pre post,
    t <> t' ->
    signature [{| integrand := e; dom := dm; itype := it; xdoms := pre ++ (d, t) :: post; sid := sd; md := m |}] <>
    signature [{| integrand := e; dom := dm; itype := it; xdoms := pre ++ (d, t') :: post; sid := sd; md := m |}].
  Proof.
    intros e dm it sd m d t t' pre post Hne E. apply C11_sound in E. cbn [map meaning xdoms] in E.
    injection E as E. apply app_inv_head in E. injection E as E. exact (Hne E).
  Qed.

  (** metadata VALUES are determined only for equal type skeletons ... *)
  Corollary C11_sound_metadata_typed : (forall x y, str_arr x = str_arr y -> x = y) ->
    forall i j, signature [i] = signature [j] -> same_type (md i) (md j) = true -> md i = md j.
  Proof.
    intros Ha i j E Ht. apply C11_sound in E. cbn [map] in E.
    injection E as _ _ _ _ _ E. apply (C11_canon_md_inj_typed Ha); assumption.
  Qed.

  (** ... and every collision of str(ndarray) is a collision of signatures of forms whose metadata differ
      (the harness exhibits x <> y with str_arr x = str_arr y on the real numpy) *)
  Theorem C11_signature_collision_from_array_str : forall x y e dm it sd,
    x <> y -> str_arr x = str_arr y ->
    let F := [{| integrand := e; dom := dm; itype := it; xdoms := []; sid := sd; md := MDict [("weights"%string, MArr x)] |}] in
    let G := [{| integrand := e; dom := dm; itype := it; xdoms := []; sid := sd; md := MDict [("weights"%string, MArr y)] |}] in
    F <> G /\ signature F = signature G.
  Proof.
    intros x y e dm it sd Hne Hs F G. split.
    - unfold F, G. intro E. injection E as E. apply Hne. exact E.
    - unfold signature, F, G. simpl. unfold integral_tok. simpl. rewrite Hs. reflexivity.
  Qed.

  Theorem C11_signature_collision_untyped : forall e dm it sd,
    let F := [{| integrand := e; dom := dm; itype := it; xdoms := []; sid := sd; md := MDict [("degree"%string, MInt 3)] |}] in
    let G := [{| integrand := e; dom := dm; itype := it; xdoms := []; sid := sd; md := MDict [("degree"%string, MStr (str_int 3))] |}] in
    F <> G /\ signature F = signature G.
  Proof.
    intros e dm it sd F G. split.
    - unfold F, G. intro E. discriminate E.
    - reflexivity.
  Qed.
End Sig.

Print Assumptions C11_thd_inj.
Print Assumptions C11_complete_expr.
Print Assumptions C11_ehash_inj.
Print Assumptions C11_canon_md_inj_typed.
Print Assumptions C11_metadata_untyped_refuted.
Print Assumptions C11_complete.
Print Assumptions C11_sound.
Print Assumptions C11_sound_extra_domain_type.
Print Assumptions C11_sound_metadata_typed.
Print Assumptions C11_signature_collision_from_array_str.
Print Assumptions C11_signature_collision_untyped.
Print Assumptions C11_canon_md2_inj.
Print Assumptions C11_canon_md2_inj_tagged.
Print Assumptions C11_repaired_leaves_distinct.
Print Assumptions C11_repaired_sequence_type_refuted.

(** executable instances for the generated correspondence (coq/Gen/C11_*.v): arrays are represented by
    their real str() (the oracle), ints are printed by a Gallina decimal printer *)
Definition z_str (z : Z) : string :=
  match z with Z0 => "0" | Zpos p => dec (Npos p) | Zneg p => String "-" (dec (Npos p)) end.
Definition md_tok (m : mval string) : tok unit :=
  canon_md unit string (fun s => s) z_str (fun s => s) m.
(** repaired rendering: strings are quoted, floats/arrays are given by their real rendering *)
Definition rleaf_exec (l : leaf string) : string :=
  match l with
  | LInt _ z => z_str z
  | LFloat _ r => r
  | LStr _ s => String "'" (s ++ "'")
  | LNone _ => "None"
  | LBool _ b => if b then "True" else "False"
  | LArr _ a => a
  end.
Definition md_tok2 (tag : bool) (m : mval string) : tok unit :=
  canon_md2 unit string rleaf_exec tag m.
Check md_tok2.
