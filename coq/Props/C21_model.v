(* C21 - replace substitutes exactly the mapped subexpressions.

   Hand-written part: [rep m e] is simultaneous substitution of terminals (kind, id) by the images
   given by [m] (the Replacer of ufl/algorithms/replace.py without the constructor re-simplifications,
   which the per-run traces cover).  For ALL expressions e and mappings m:

     C21_subst           den env (rep m e) = den env[t := den env (m t)] e     (substitution lemma;
                         under Grad the derivations act on the image, under Restricted the image is
                         evaluated on that side, Variables are transparent)
     C21_shape           the shape is preserved when every mapped terminal has an image of its shape
     C21_shape_reject    the checked replace fails exactly when [shape_compat e] is false ([shape_compat]:
                         every occurring mapped terminal has an image of its shape, by definition)
     C21_identity        no mapped terminal occurs in e  ->  rep m e = e
   The clauses of [rep], [shape_compat], [mapped_in] are written constructor by constructor by
   py/C21_genind.py (run by hand, like C21_ind.v): a new constructor of Core/Syntax.v needs a new run. *)
Require Import UFLV.Core.Facts UFLV.Props.C21_ind.

Fixpoint list_nat_eqb (a b : list nat) : bool :=
  match a, b with
  | [], [] => true
  | x :: a', y :: b' => Nat.eqb x y && list_nat_eqb a' b'
  | _, _ => false
  end.
Lemma list_nat_eqb_eq a b : list_nat_eqb a b = true <-> a = b.
Proof.
  revert b; induction a as [|x a IH]; intros [|y b]; cbn; split; intros H; try discriminate; try reflexivity.
  - apply andb_prop in H. destruct H as [H1 H2]. apply Nat.eqb_eq in H1. apply IH in H2. congruence.
  - inversion H; subst. rewrite Nat.eqb_refl. cbn. apply IH. reflexivity.
Qed.

Section Rep.
Variable m : nat -> nat -> option expr.      (* the mapping: terminal (kind, id) -> image *)

Fixpoint rep (e : expr) : expr :=
  match e with
  | Zero sh fi => Zero sh fi
  | IntV z => IntV z
  | RealV m e => RealV m e
  | CplxV rm re im ie => CplxV rm re im ie
  | RatV p q => RatV p q
  | Identity n => Identity n
  | PermSym n => PermSym n
  | Term k id sh => match m k id with Some t => t | None => e end
  | Sum a b => Sum (rep a) (rep b)
  | Product a b => Product (rep a) (rep b)
  | Division a b => Division (rep a) (rep b)
  | Power a b => Power (rep a) (rep b)
  | Abs a => Abs (rep a)
  | Conj a => Conj (rep a)
  | Real a => Real (rep a)
  | Imag a => Imag (rep a)
  | Indexed a mi => Indexed (rep a) mi
  | IndexSum a i d => IndexSum (rep a) i d
  | ComponentTensor a ix => ComponentTensor (rep a) ix
  | ListTensor es => ListTensor (map rep es)
  | Conditional c t f => Conditional (repc c) (rep t) (rep f)
  | MinV a b => MinV (rep a) (rep b)
  | MaxV a b => MaxV (rep a) (rep b)
  | Math f a => Math f (rep a)
  | Atan2 a b => Atan2 (rep a) (rep b)
  | Bessel k nu a => Bessel k (rep nu) (rep a)
  | Vari a label => Vari (rep a) label
  | Restricted plus a => Restricted plus (rep a)
  | Grad a g => Grad (rep a) g
  | RefGrad a t => RefGrad (rep a) t
  | Div a g => Div (rep a) g
  | NablaGrad a g => NablaGrad (rep a) g
  | NablaDiv a g => NablaDiv (rep a) g
  | Curl a => Curl (rep a)
  | RefValue a sh => RefValue (rep a) sh
  | Transposed a => Transposed (rep a)
  | Outer a b => Outer (rep a) (rep b)
  | Inner a b => Inner (rep a) (rep b)
  | Dot a b => Dot (rep a) (rep b)
  | Cross a b => Cross (rep a) (rep b)
  | Perp a => Perp (rep a)
  | Trace a => Trace (rep a)
  | Determinant a => Determinant (rep a)
  | Inverse a => Inverse (rep a)
  | Cofactor a => Cofactor (rep a)
  | Deviatoric a => Deviatoric (rep a)
  | Skew a => Skew (rep a)
  | Sym a => Sym (rep a)
  end
with repc (c : cond) : cond :=
  match c with
  | Cmp op a b => Cmp op (rep a) (rep b)
  | AndC a b => AndC (repc a) (repc b)
  | OrC a b => OrC (repc a) (repc b)
  | NotC a => NotC (repc a)
  end.

(* every occurring mapped terminal has an image of its own shape / some mapped terminal occurs *)
Fixpoint shape_compat (e : expr) : bool :=
  match e with
  | Zero sh fi => true
  | IntV z => true
  | RealV m e => true
  | CplxV rm re im ie => true
  | RatV p q => true
  | Identity n => true
  | PermSym n => true
  | Term k id sh => match m k id with Some t => list_nat_eqb (shape t) sh | None => true end
  | Sum a b => shape_compat a && shape_compat b
  | Product a b => shape_compat a && shape_compat b
  | Division a b => shape_compat a && shape_compat b
  | Power a b => shape_compat a && shape_compat b
  | Abs a => shape_compat a
  | Conj a => shape_compat a
  | Real a => shape_compat a
  | Imag a => shape_compat a
  | Indexed a mi => shape_compat a
  | IndexSum a i d => shape_compat a
  | ComponentTensor a ix => shape_compat a
  | ListTensor es => (fix go (l : list expr) : bool := match l with [] => true | x :: t => shape_compat x && go t end) es
  | Conditional c t f => shape_compatc c && shape_compat t && shape_compat f
  | MinV a b => shape_compat a && shape_compat b
  | MaxV a b => shape_compat a && shape_compat b
  | Math f a => shape_compat a
  | Atan2 a b => shape_compat a && shape_compat b
  | Bessel k nu a => shape_compat nu && shape_compat a
  | Vari a label => shape_compat a
  | Restricted plus a => shape_compat a
  | Grad a g => shape_compat a
  | RefGrad a t => shape_compat a
  | Div a g => shape_compat a
  | NablaGrad a g => shape_compat a
  | NablaDiv a g => shape_compat a
  | Curl a => shape_compat a
  | RefValue a sh => shape_compat a
  | Transposed a => shape_compat a
  | Outer a b => shape_compat a && shape_compat b
  | Inner a b => shape_compat a && shape_compat b
  | Dot a b => shape_compat a && shape_compat b
  | Cross a b => shape_compat a && shape_compat b
  | Perp a => shape_compat a
  | Trace a => shape_compat a
  | Determinant a => shape_compat a
  | Inverse a => shape_compat a
  | Cofactor a => shape_compat a
  | Deviatoric a => shape_compat a
  | Skew a => shape_compat a
  | Sym a => shape_compat a
  end
with shape_compatc (c : cond) : bool :=
  match c with
  | Cmp op a b => shape_compat a && shape_compat b
  | AndC a b => shape_compatc a && shape_compatc b
  | OrC a b => shape_compatc a && shape_compatc b
  | NotC a => shape_compatc a
  end.

Fixpoint mapped_in (e : expr) : bool :=
  match e with
  | Zero sh fi => false
  | IntV z => false
  | RealV m e => false
  | CplxV rm re im ie => false
  | RatV p q => false
  | Identity n => false
  | PermSym n => false
  | Term k id sh => match m k id with Some _ => true | None => false end
  | Sum a b => mapped_in a || mapped_in b
  | Product a b => mapped_in a || mapped_in b
  | Division a b => mapped_in a || mapped_in b
  | Power a b => mapped_in a || mapped_in b
  | Abs a => mapped_in a
  | Conj a => mapped_in a
  | Real a => mapped_in a
  | Imag a => mapped_in a
  | Indexed a mi => mapped_in a
  | IndexSum a i d => mapped_in a
  | ComponentTensor a ix => mapped_in a
  | ListTensor es => (fix go (l : list expr) : bool := match l with [] => false | x :: t => mapped_in x || go t end) es
  | Conditional c t f => mapped_inc c || mapped_in t || mapped_in f
  | MinV a b => mapped_in a || mapped_in b
  | MaxV a b => mapped_in a || mapped_in b
  | Math f a => mapped_in a
  | Atan2 a b => mapped_in a || mapped_in b
  | Bessel k nu a => mapped_in nu || mapped_in a
  | Vari a label => mapped_in a
  | Restricted plus a => mapped_in a
  | Grad a g => mapped_in a
  | RefGrad a t => mapped_in a
  | Div a g => mapped_in a
  | NablaGrad a g => mapped_in a
  | NablaDiv a g => mapped_in a
  | Curl a => mapped_in a
  | RefValue a sh => mapped_in a
  | Transposed a => mapped_in a
  | Outer a b => mapped_in a || mapped_in b
  | Inner a b => mapped_in a || mapped_in b
  | Dot a b => mapped_in a || mapped_in b
  | Cross a b => mapped_in a || mapped_in b
  | Perp a => mapped_in a
  | Trace a => mapped_in a
  | Determinant a => mapped_in a
  | Inverse a => mapped_in a
  | Cofactor a => mapped_in a
  | Deviatoric a => mapped_in a
  | Skew a => mapped_in a
  | Sym a => mapped_in a
  end
with mapped_inc (c : cond) : bool :=
  match c with
  | Cmp op a b => mapped_in a || mapped_in b
  | AndC a b => mapped_inc a || mapped_inc b
  | OrC a b => mapped_inc a || mapped_inc b
  | NotC a => mapped_inc a
  end.

(* replace with the shape check of Replacer.__init__ *)
Definition replace_checked (e : expr) : option expr :=
  if shape_compat e then Some (rep e) else None.

(* the ListTensor clauses of the two boolean recursions, read element-wise *)
Lemma compat_elements (es : list expr) :
  (fix go (l : list expr) : bool := match l with [] => true | x :: t => shape_compat x && go t end) es = true ->
  forall e, In e es -> shape_compat e = true.
Proof.
  induction es as [|x t IH]; intros H e He; [destruct He|]. apply andb_prop in H.
  destruct He as [<-|He]; [apply H | apply IH; [apply H | exact He]].
Qed.
Lemma unmapped_elements (es : list expr) :
  (fix go (l : list expr) : bool := match l with [] => false | x :: t => mapped_in x || go t end) es = false ->
  forall e, In e es -> mapped_in e = false.
Proof.
  induction es as [|x t IH]; intros H e He; [destruct He|]. apply orb_false_elim in H.
  destruct He as [<-|He]; [apply H | apply IH; [apply H | exact He]].
Qed.

Theorem C21_identity_both :
  (forall e, mapped_in e = false -> rep e = e) /\ (forall c, mapped_inc c = false -> repc c = c).
Proof.
  apply expr_cond_full_ind; intros; cbn [mapped_in mapped_inc rep repc] in *;
    repeat match goal with H : _ || _ = false |- _ => apply orb_false_elim in H; destruct H end;
    try reflexivity; try (f_equal; auto; fail).
  - destruct (m k id); [discriminate|reflexivity].
  - f_equal. rewrite <- (map_id es) at 2. apply map_ext_Forall. rewrite Forall_forall in *.
    intros e He. apply H; [exact He|]. eapply unmapped_elements; eassumption.
Qed.
Theorem C21_identity : forall e, mapped_in e = false -> rep e = e.
Proof. exact (proj1 C21_identity_both). Qed.

Theorem C21_shape : forall e, shape_compat e = true -> shape (rep e) = shape e.
Proof.
  apply (expr_full_ind (fun e => shape_compat e = true -> shape (rep e) = shape e) (fun _ => True));
    intros; try exact I; cbn [shape_compat rep shape] in *; bsplit; try reflexivity;
    try (rewrite ?H, ?H0, ?H1 by assumption; reflexivity).
  - destruct (m k id) as [t|]; [|reflexivity]. apply list_nat_eqb_eq. assumption.
  - rewrite map_length. f_equal. destruct es as [|x t]; [reflexivity|].
    apply (Forall_inv H). apply andb_prop in H0. apply H0.
Qed.

Theorem C21_shape_reject : forall e,
  replace_checked e = None <-> shape_compat e = false.
Proof. intros e. unfold replace_checked. destruct (shape_compat e); split; intros H; congruence. Qed.

Section Subst.
Variable A : ualg.
Open Scope K_scope.
Variable env : side -> nat -> nat -> list nat -> A.
Variable D DX : nat -> A -> A.
Variable ki : A.
Notation den0 := (@den A env D DX ki).
Notation denc0 := (@denc A env D DX ki).

(* the environment in which every mapped terminal takes the value of its image *)
Definition env' : side -> nat -> nat -> list nat -> A :=
  fun s k id c => match m k id with Some t => den0 s (fun _ => 0) t c | None => env s k id c end.
Notation den1 := (@den A env' D DX ki).
Notation denc1 := (@denc A env' D DX ki).

(* images have no free indices (their value does not depend on the index valuation) *)
Hypothesis Hclosed : forall k id t, m k id = Some t ->
  forall s rho rho' c, den0 s rho t c = den0 s rho' t c.
(* kpow agrees with repeated multiplication on literal natural exponents (Power with a literal
   integer exponent denotes kpown, Core/Den.v) *)
Hypothesis Hpow0 : forall x : A, kpow x (of_Z 0) = k1.
Hypothesis Hpown : forall (x : A) p, kpow x (of_Z (Zpos p)) = kpown x (Pos.to_nat p).

Lemma rep_head b z : rep b = IntV z -> b = IntV z \/ exists k id sh, b = Term k id sh.
Proof. destruct b; try discriminate; intros H; [left; exact H | right; eauto]. Qed.

(* replacing can change whether an exponent is a literal only at a mapped terminal, and there
   [Hpow0]/[Hpown] make the two readings of Power agree *)
Lemma lit_int_rep b : lit_int (rep b) = lit_int b \/ exists k id sh, b = Term k id sh.
Proof. destruct b; try (left; reflexivity). right; eauto. Qed.

Theorem C21_subst_both :
  (forall e, shape_compat e = true -> forall s rho c, den0 s rho (rep e) c = den1 s rho e c) /\
  (forall cn, shape_compatc cn = true -> forall s rho, denc0 s rho (repc cn) = denc1 s rho cn).
Proof.
  apply expr_cond_full_ind; intros; cbn [shape_compat shape_compatc] in *; bsplit;
    repeat match goal with IH : ?p = true -> _, Hp : ?p = true |- _ => specialize (IH Hp) end;
    cbn [rep repc].
  (* [den] at the head constructor: by its equation of Core/Facts.v for the constructors listed (unfolding
     the mutual fixpoint and folding it back is the dearest step, for coqc and again for the kernel); the
     others, among them Grad, RefGrad, Outer, Inner, Dot, which have an equation too, by [cbn [den]] *)
  all: lazymatch goal with
       | |- den0 _ _ (Sum _ _) _ = _ => rewrite !den_Sum
       | |- den0 _ _ (Product _ _) _ = _ => rewrite !den_Product
       | |- den0 _ _ (Division _ _) _ = _ => rewrite !den_Division
       | |- den0 _ _ (Power _ _) _ = _ => rewrite !den_Power
       | |- den0 _ _ (Abs _) _ = _ => rewrite !den_Abs
       | |- den0 _ _ (Conj _) _ = _ => rewrite !den_Conj
       | |- den0 _ _ (Real _) _ = _ => rewrite !den_Real
       | |- den0 _ _ (Imag _) _ = _ => rewrite !den_Imag
       | |- den0 _ _ (Indexed _ _) _ = _ => rewrite !den_Indexed
       | |- den0 _ _ (IndexSum _ _ _) _ = _ => rewrite !den_IndexSum
       | |- den0 _ _ (ComponentTensor _ _) _ = _ => rewrite !den_ComponentTensor
       | |- den0 _ _ (ListTensor _) _ = _ => rewrite !den_ListTensor
       | |- den0 _ _ (Conditional _ _ _) _ = _ => rewrite !den_Conditional
       | |- den0 _ _ (MinV _ _) _ = _ => rewrite !den_MinV
       | |- den0 _ _ (MaxV _ _) _ = _ => rewrite !den_MaxV
       | |- den0 _ _ (Math _ _) _ = _ => rewrite !den_Math
       | |- den0 _ _ (Atan2 _ _) _ = _ => rewrite !den_Atan2
       | |- denc0 _ _ (Cmp _ _ _) = _ => rewrite !denc_Cmp
       | |- denc0 _ _ (AndC _ _) = _ => rewrite !denc_And
       | |- denc0 _ _ (OrC _ _) = _ => rewrite !denc_Or
       | |- denc0 _ _ (NotC _) = _ => rewrite !denc_Not
       | _ => try reflexivity; cbn [den]
       end.
  (* no case analysis: the value is a fixed expression in the values of the operands *)
  all: try (lazymatch goal with |- context [match _ with _ => _ end] => fail | _ => idtac end;
            rewrite ?C21_shape by assumption; rewrite ?H, ?H0, ?H1; reflexivity).
  (* sums over an index: IndexSum, Div, NablaDiv, Dot, Trace *)
  all: try (rewrite ?C21_shape by assumption; apply ksum_ext; intros k _; rewrite ?H, ?H0; reflexivity).
  (* Grad, RefGrad *)
  all: try (destruct (split_last c); rewrite H; reflexivity).
  (* cases on the component list only: NablaGrad, Cross, Perp, Skew, Sym *)
  all: try (lazymatch goal with |- context [shape] => fail | _ => idtac end;
            destruct c as [|i [|j [|? ?]]]; rewrite ?H, ?H0; reflexivity).
  all: rewrite ?C21_shape by assumption.
  - (* Term *) unfold env'. destruct (m k id) as [t|] eqn:E; [apply (Hclosed _ _ _ E)|reflexivity].
  - (* Power *) rewrite H. destruct (lit_int_rep b) as [->|(k & id & sh & ->)]; [rewrite H0; reflexivity|].
    rewrite <- H0. apply pow_z_kpow; [exact Hpow0|exact Hpown].
  - (* ListTensor *) destruct c as [|k c']; [reflexivity|]. rewrite nth_error_map.
    destruct (nth_error es k) as [e|] eqn:E; [|reflexivity]. apply nth_error_In in E.
    rewrite Forall_forall in H. apply H; [exact E|]. eapply compat_elements; eassumption.
  - (* Curl *) destruct c as [|i [|? ?]]; rewrite ?H; reflexivity.
  - (* Inner *) apply ksum_shape_ext; intros I. rewrite H, H0. reflexivity.
  - (* Determinant *) destruct (shape a) as [|mm [|nn [|? ?]]]; try reflexivity; [apply H|].
    destruct (mm =? nn); [|f_equal]; apply det_ext; intros i j; [|apply gram_ext; intros i' j']; apply H.
  - (* Inverse *) destruct (shape a) as [|mm [|nn [|? ?]]]; try reflexivity; [rewrite H; reflexivity|].
    destruct c as [|i [|j [|? ?]]]; try reflexivity.
    destruct (mm =? nn).
    + f_equal; [apply cofactor_ext | apply det_ext]; intros i' j'; apply H.
    + apply ksum_ext; intros k _. rewrite H. f_equal. f_equal.
      * apply cofactor_ext; intros i' j'. apply gram_ext; intros ? ?. apply H.
      * apply det_ext; intros i' j'. apply gram_ext; intros ? ?. apply H.
  - (* Cofactor *) destruct (shape a) as [|mm [|nn [|? ?]]]; try reflexivity.
    destruct c as [|i [|j [|? ?]]]; try reflexivity. apply cofactor_ext; intros i' j'. apply H.
  - (* Deviatoric *) destruct (shape a) as [|mm [|nn [|? ?]]]; try reflexivity.
    destruct c as [|i [|j [|? ?]]]; try reflexivity. rewrite H. f_equal.
    destruct (i =? j); [|reflexivity]. f_equal. apply ksum_ext; intros k _. apply H.
Qed.

(* the value of replace(e, m) is the value of e in the environment where every mapped terminal takes
   the value of its image *)
Theorem C21_subst : forall e, shape_compat e = true ->
  forall s rho c, den0 s rho (rep e) c = den1 s rho e c.
Proof. exact (proj1 C21_subst_both). Qed.

(* special cases named in the property: under derivatives the derivation acts on the image, under a
   restriction the image is evaluated on that side, variables are transparent *)
Corollary C21_under_grad : forall a g, shape_compat a = true -> forall s rho c j,
  den0 s rho (rep (Grad a g)) (c ++ [j]) = D j (den1 s rho a c).
Proof. intros a g H s rho c j. cbn [rep]. rewrite den_Grad_snoc, (C21_subst a H). reflexivity. Qed.
Corollary C21_under_restriction : forall a p, shape_compat a = true -> forall s rho c,
  den0 s rho (rep (Restricted p a)) c = den1 (Some p) rho a c.
Proof. intros a p H s rho c. cbn [rep Den.den]. apply (C21_subst a H). Qed.
Corollary C21_under_variable : forall a l, shape_compat a = true -> forall s rho c,
  den0 s rho (rep (Vari a l)) c = den1 s rho a c.
Proof. intros a l H s rho c. cbn [rep Den.den]. apply (C21_subst a H). Qed.
(* a mapped terminal itself *)
Corollary C21_mapped_terminal : forall k id sh t, m k id = Some t -> forall s rho c,
  den0 s rho (rep (Term k id sh)) c = den0 s rho t c.
Proof. intros k id sh t E s rho c. cbn [rep]. rewrite E. reflexivity. Qed.
End Subst.
End Rep.

Print Assumptions C21_subst.
Print Assumptions C21_shape.
Print Assumptions C21_shape_reject.
Print Assumptions C21_identity.
Print Assumptions C21_under_grad.
