(* C10: the traversal combinators of C10_model (option monad, sub-expressions, folds) and the
   congruence of [rk] and [den] under [emapM] for the non-binding nodes of the fragment. *)
Require Import UFLV.Core.Facts UFLV.Props.C10_model.
Import ListNotations.

Definition is_plain (e : expr) : bool :=
  match e with
  | Zero _ _ | Indexed _ _ | IndexSum _ _ _ | ComponentTensor _ _ => false
  | _ => true
  end.

Lemma bind_inv {X Y} (o : option X) (g : X -> option Y) r :
  bind o g = Some r -> exists x, o = Some x /\ g x = Some r.
Proof. destruct o as [x|]; [exists x; auto|discriminate]. Qed.
Lemma bind1_inv {X Y} (o : option X) (C : X -> Y) r :
  bind o (fun x => Some (C x)) = Some r -> exists x, o = Some x /\ r = C x.
Proof. intros H. apply bind_inv in H as (x & E & H). injection H as <-. exists x; auto. Qed.
Lemma bind2_inv {X Y Z} (o1 : option X) (o2 : option Y) (C : X -> Y -> Z) r :
  bind o1 (fun x => bind o2 (fun y => Some (C x y))) = Some r ->
  exists x y, o1 = Some x /\ o2 = Some y /\ r = C x y.
Proof.
  intros H. apply bind_inv in H as (x & E1 & H). apply bind1_inv in H as (y & E2 & ->).
  exists x, y; auto.
Qed.

Lemma mapM_cons {X Y} (f : X -> option Y) x t :
  mapM f (x :: t) = bind (f x) (fun y => bind (mapM f t) (fun t' => Some (y :: t'))).
Proof. reflexivity. Qed.
Lemma mapM_Forall2 {X Y} (f : X -> option Y) l l' :
  mapM f l = Some l' -> Forall2 (fun x y => f x = Some y) l l'.
Proof.
  revert l'; induction l as [|x t IH]; intros l' H.
  - injection H as <-. constructor.
  - rewrite mapM_cons in H. apply bind2_inv in H as (y & t' & Ey & Et & ->). constructor; auto.
Qed.

Lemma Forall2_length {X Y} {R : X -> Y -> Prop} {l l'} : Forall2 R l l' -> length l = length l'.
Proof. induction 1; cbn; congruence. Qed.

Lemma cexprs_app c : forall acc, cexprs c acc = cexprs c [] ++ acc.
Proof.
  induction c; intros acc; cbn [cexprs]; [reflexivity| | |apply IHc].
  all: rewrite IHc1, IHc2, (IHc1 (cexprs c2 [])), app_assoc; reflexivity.
Qed.

Lemma cexprs_size c a : In a (cexprs c []) -> size a < csize c.
Proof.
  induction c; cbn [cexprs csize]; intros H.
  - destruct H as [<-|[<-|[]]]; lia.
  - rewrite cexprs_app, in_app_iff in H. destruct H as [H|H]; [apply IHc1 in H|apply IHc2 in H]; lia.
  - rewrite cexprs_app, in_app_iff in H. destruct H as [H|H]; [apply IHc1 in H|apply IHc2 in H]; lia.
  - apply IHc in H. lia.
Qed.

Lemma children_size e a : In a (children e) -> size a < size e.
Proof.
  destruct e; cbn [children]; intros H;
    try (repeat (destruct H as [<-|H]; [cbn [size]; lia|]); destruct H).
  - apply size_In_ListTensor, H.
  - rewrite cexprs_app, in_app_iff in H. cbn [size].
    destruct H as [H|[<-|[<-|[]]]]; [apply cexprs_size in H| |]; lia.
Qed.

Lemma children_ind (P : expr -> Prop) :
  (forall e, (forall a, In a (children e) -> P a) -> P e) -> forall e, P e.
Proof. intros H. apply size_ind. intros e IH. apply H. intros a Ha. apply IH, children_size, Ha. Qed.

Section Fold.
Context {X : Type} (op : X -> X -> X) (u : X) (f : expr -> X).
Lemma cfold_cexprs c : forall l,
  cfold op f c (fold_right (fun a r => op (f a) r) u l) = fold_right (fun a r => op (f a) r) u (cexprs c l).
Proof. induction c; intros l; cbn [cfold cexprs]; rewrite ?IHc2, ?IHc1, ?IHc; reflexivity. Qed.
Lemma efold_children e :
  efold op u f e = fold_right (fun a r => op (f a) r) u (children e).
Proof. destruct e; try reflexivity. apply (cfold_cexprs c [e1; e2]). Qed.
End Fold.

Lemma efold_app {X} (F : expr -> list X) e : efold (@app X) [] F e = flat_map F (children e).
Proof. rewrite efold_children. induction (children e) as [|a l IH]; cbn; congruence. Qed.
Lemma efold_andb (F : expr -> bool) e : efold andb true F e = forallb F (children e).
Proof. rewrite efold_children. induction (children e) as [|a l IH]; cbn; congruence. Qed.

(* the functions of the model that treat only the index nodes specially are folds at plain nodes *)
Lemma fv_plain e : is_plain e = true -> fv e = efold (@app nat) [] fv e.
Proof. destruct e; try reflexivity; discriminate. Qed.
Lemma aidx_plain e : is_plain e = true -> aidx e = efold (@app nat) [] aidx e.
Proof. destruct e; try reflexivity; discriminate. Qed.
Lemma dv_plain e : is_plain e = true -> dv e = efold (@app nat) [] dv e.
Proof. destruct e; try reflexivity; discriminate. Qed.
Lemma hyg_plain bs e : is_plain e = true -> hyg bs e = efold andb true (hyg bs) e.
Proof. destruct e; try reflexivity; discriminate. Qed.
Lemma safe_plain m e : is_plain e = true -> safe m e = efold andb true (safe m) e.
Proof. destruct e; try reflexivity; discriminate. Qed.
Lemma rct_safe_plain e : is_plain e = true -> rct_safe e = efold andb true rct_safe e.
Proof. destruct e; try reflexivity; discriminate. Qed.
Lemma irep_plain m e : is_plain e = true -> irep m e = emapM (irep m) e.
Proof. destruct e; try reflexivity; discriminate. Qed.
Lemma rct_plain e : is_plain e = true -> rct e = emapM rct e.
Proof. destruct e; try reflexivity; discriminate. Qed.

Lemma fv_child e a j : is_plain e = true -> In a (children e) -> In j (fv a) -> In j (fv e).
Proof. intros Hp Ha Hj. rewrite (fv_plain e Hp), efold_app. apply in_flat_map. exists a; auto. Qed.
Lemma hyg_child bs e a : is_plain e = true -> hyg bs e = true -> In a (children e) -> hyg bs a = true.
Proof.
  intros Hp Hh Ha. rewrite (hyg_plain bs e Hp), efold_andb, forallb_forall in Hh. apply Hh, Ha.
Qed.

Lemma length_eqb0 {X} (c : list X) k : length c = k -> Nat.eqb k 0 = true -> c = [].
Proof. intros <- H. destruct c; [reflexivity|discriminate H]. Qed.
Lemma removelast_length {X} (l : list X) : length (removelast l) = pred (length l).
Proof. induction l as [|x [|y t] IH]; cbn in *; auto. Qed.

(* [cmapM f] rebuilds a condition from its rewritten comparison operands, which stand at rank 0: a relation
   R between each operand and what f puts for it gives Q between the conditions, Q being a congruence *)
Lemma cmapM_rel f (R : expr -> expr -> Prop) (Q : cond -> cond -> Prop) :
  (forall op a b a' b', R a a' -> R b b' -> Q (Cmp op a b) (Cmp op a' b')) ->
  (forall a b a' b', Q a a' -> Q b b' -> Q (AndC a b) (AndC a' b') /\ Q (OrC a b) (OrC a' b')) ->
  (forall a a', Q a a' -> Q (NotC a) (NotC a')) ->
  forall cn cn', cmapM f cn = Some cn' -> crk cn = true ->
  (forall a a', In a (cexprs cn []) -> f a = Some a' -> rk a 0 = true -> R a a') -> Q cn cn'.
Proof.
  intros QC QB QN. induction cn; intros cn' Hm Hr Hc; cbn [cmapM cexprs crk] in *.
  - apply andb_prop in Hr as [Ra Rb]. apply bind2_inv in Hm as (a' & b' & Ea & Eb & ->).
    apply QC; [apply (Hc a a') | apply (Hc b b')]; cbn; auto.
  - apply andb_prop in Hr as [R1 R2]. apply bind2_inv in Hm as (c1 & c2 & E1 & E2 & ->).
    apply QB; [apply IHcn1 | apply IHcn2]; try assumption;
      intros a a' Ha; apply Hc; rewrite cexprs_app; apply in_or_app; auto.
  - apply andb_prop in Hr as [R1 R2]. apply bind2_inv in Hm as (c1 & c2 & E1 & E2 & ->).
    apply QB; [apply IHcn1 | apply IHcn2]; try assumption;
      intros a a' Ha; apply Hc; rewrite cexprs_app; apply in_or_app; auto.
  - apply bind1_inv in Hm as (c1 & E1 & ->). apply QN, IHcn; assumption.
Qed.

Lemma cmapM_crk f cn cn' :
  cmapM f cn = Some cn' -> crk cn = true ->
  (forall a a', In a (cexprs cn []) -> f a = Some a' -> rk a 0 = true -> rk a' 0 = true) ->
  crk cn' = true.
Proof.
  apply (cmapM_rel f (fun _ a' => rk a' 0 = true) (fun _ c' => crk c' = true)); cbn [crk].
  - intros _ _ _ a' b' -> ->. reflexivity.
  - intros _ _ a' b' -> ->. split; reflexivity.
  - intros _ a' H. exact H.
Qed.

Section Congr.
Variable A : ualg.
Variable env : side -> nat -> nat -> list nat -> A.
Variables D DX : nat -> A -> A.
Variable ki : A.
Notation DEN := (@den A env D DX ki).
Notation DENC := (@denc A env D DX ki).

(* f replaces a by an expression that is valid at every rank at which a is, with the same value
   (under rho' for the replacement, rho for a) at every component of such a rank *)
Definition related (f : expr -> option expr) (rho' rho : nat -> nat) (a : expr) : Prop :=
  forall a', f a = Some a' -> forall k, rk a k = true ->
    rk a' k = true /\ forall s c, length c = k -> DEN s rho' a' c = DEN s rho a c.

Lemma den_lit b : is_lit b = true -> forall s rho' rho c, DEN s rho' b c = DEN s rho b c.
Proof. destruct b; try discriminate; reflexivity. Qed.

Lemma cmapM_denc f cn cn' rho' rho s :
  cmapM f cn = Some cn' -> crk cn = true ->
  (forall a a', In a (cexprs cn []) -> f a = Some a' -> rk a 0 = true ->
                DEN s rho' a' [] = DEN s rho a []) ->
  DENC s rho' cn' = DENC s rho cn.
Proof.
  apply (cmapM_rel f (fun a a' => DEN s rho' a' [] = DEN s rho a [])
                     (fun c c' => DENC s rho' c' = DENC s rho c)).
  - intros op a b a' b' Ea Eb. rewrite !denc_Cmp, Ea, Eb. reflexivity.
  - intros a b a' b' Ea Eb. rewrite !denc_And, !denc_Or, Ea, Eb. split; reflexivity.
  - intros a a' Ea. rewrite !denc_Not, Ea. reflexivity.
Qed.

Lemma ListTensor_related f es es' rho' rho :
  Forall2 (fun x y => f x = Some y) es es' -> (forall a, In a es -> related f rho' rho a) ->
  forall k, rk (ListTensor es) k = true ->
    rk (ListTensor es') k = true /\
    forall s c, length c = k -> DEN s rho' (ListTensor es') c = DEN s rho (ListTensor es) c.
Proof.
  intros HF Hc [|n] Hr; [discriminate|]. cbn [rk] in *.
  enough (H : forallb (fun x => rk x n) es' = true /\
              forall s c j, length c = n ->
                match nth_error es' j with Some e => DEN s rho' e c | None => k0 end =
                match nth_error es j with Some e => DEN s rho e c | None => k0 end).
  { split; [apply H|]. intros s [|j c] L; [discriminate|]. rewrite !den_ListTensor. apply H.
    injection L as L. exact L. }
  induction HF as [|x y t t' Exy HF IH]; [split; [reflexivity|intros s c [|j]; reflexivity]|].
  cbn [forallb] in *. bsplit. destruct (Hc x (or_introl eq_refl) y Exy n H) as [Ry Vy].
  destruct IH as [Rt Vt]; [intros a Ha; apply Hc; right; exact Ha|assumption|].
  split; [bsplit; assumption|]. intros s c [|j] L; cbn [nth_error]; [apply Vy, L|apply Vt, L].
Qed.

(* the two halves R, V of [Hc : forall a, In a (children e) -> related f rho' rho a] at the child a
   with E : f a = Some a', for the rank at which the context says a is valid *)
Ltac child Hc E R V :=
  match type of E with ?f ?a = Some ?a' =>
    match goal with Ra : rk a _ = true |- _ => destruct (Hc a ltac:(cbn; auto) a' E _ Ra) as [R V] end
  end.

Lemma emapM_congr f e rho' rho :
  is_plain e = true -> (forall a, In a (children e) -> related f rho' rho a) ->
  related (emapM f) rho' rho e.
Proof.
  intros Hp Hc e' Hm k Hr.
  destruct e; try discriminate Hp; try discriminate Hr;
    cbn [emapM] in Hm; unfold ap1, ap2 in Hm; cbn [rk] in Hr.
  (* terminals *)
  all: try (injection Hm as <-; split; [assumption|reflexivity]).
  (* nodes with two operands, then those with one: at rank 0 or at the rank of the node *)
  all: try (apply bind2_inv in Hm as (a' & b' & Ea & Eb & ->); bsplit; child Hc Ea Ra Va; child Hc Eb Rb Vb;
            split; [cbn [rk]; bsplit; assumption|];
            intros s c L; rewrite ?(length_eqb0 c _ L) by assumption; cbn [den];
            rewrite Va, Vb by first [assumption|reflexivity]; reflexivity).
  all: try (apply bind1_inv in Hm as (a' & Ea & ->); bsplit; child Hc Ea Ra Va;
            split; [cbn [rk]; bsplit; assumption|];
            intros s c L; rewrite ?(length_eqb0 c _ L) by assumption; cbn [den];
            rewrite Va by first [assumption|reflexivity]; reflexivity).
  (* Grad, RefGrad *)
  all: try (apply bind1_inv in Hm as (a' & Ea & ->); destruct k as [|k]; [discriminate|]; child Hc Ea Ra Va;
            split; [exact Ra|]; intros s c L; cbn [den split_last]; rewrite Va; [reflexivity|];
            rewrite removelast_length, L; reflexivity).
  - (* Power: the exponent is a literal *)
    apply andb_prop in Hr as [Hr Hra]. apply andb_prop in Hr as [Hk Hl].
    rewrite Hl in Hm. apply bind1_inv in Hm as (a' & Ea & ->). child Hc Ea Ra Va.
    split; [cbn [rk]; bsplit; assumption|]. intros s c L.
    rewrite (length_eqb0 c k L Hk), !den_Power, (Va s [] eq_refl), (den_lit e2 Hl s rho' rho). reflexivity.
  - (* ListTensor *)
    apply bind1_inv in Hm as (es' & E & ->).
    apply (ListTensor_related f es es' rho' rho (mapM_Forall2 _ _ _ E) Hc k Hr).
  - (* Conditional *)
    apply andb_prop in Hr as [Hr Hrf]. apply andb_prop in Hr as [Hrc Hrt].
    apply bind_inv in Hm as (c' & Ec & Hm). apply bind2_inv in Hm as (t' & f' & Et & Ef & ->).
    cbn [children] in Hc. rewrite cexprs_app in Hc. setoid_rewrite in_app_iff in Hc.
    destruct (Hc e1 ltac:(cbn; auto) t' Et k Hrt) as [Rt Vt].
    destruct (Hc e2 ltac:(cbn; auto) f' Ef k Hrf) as [Rf Vf].
    split.
    + cbn [rk]; bsplit; try assumption. apply (cmapM_crk f c c' Ec Hrc).
      intros a a' Ha Ea Ra. apply (Hc a (or_introl Ha) a' Ea 0 Ra).
    + intros s c0 L. rewrite !den_Conditional, (Vt s c0 L), (Vf s c0 L), (cmapM_denc f c c' rho' rho s Ec Hrc); [reflexivity|].
      intros a a' Ha Ea Ra. apply (Hc a (or_introl Ha) a' Ea 0 Ra). reflexivity.
Qed.

End Congr.
