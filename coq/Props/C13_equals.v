(* C13 - expr_equals (ufl/exprequals.py) and compute_expr_hash on expression trees.

   [tree]: a node has a typecode, a terminal payload (only meaningful for terminal typecodes) and
   operands.  [seq] is the SPECIFICATION of ==: same class, terminals equal by their class's ==
   ([teq], proved an equivalence per class in C13_spec.v / Gen), operands pairwise equal.
   [expr_equals] is the IMPLEMENTATION's algorithm: type/hash cut-off, identity shortcuts, the explicit
   stack loop with the `equal_pairs` memo, typecode cut-off on operands.  Object identity (`is`) is an
   abstract oracle [same]/[same_ops]/memo lookup that is only assumed SOUND (identical objects are the
   same tree) - the theorems hold whatever sharing the Python heap has.

   Theorems (all trees, all hash functions, all identity oracles):
     C13_expr_equals_spec   : expr_equals s o = true <-> seq s o = true
     C13_seq_equivalence    : seq is reflexive, symmetric, transitive
     C13_equal_interchange  : seq s o -> same hash, same repr, same shape/free-index data
     C13_compare_pure       : the operand-pointer swing performed by a successful comparison
                              (self.ufl_operands = other.ufl_operands) leaves a tree that is seq-equal
                              to the old one, with the same repr and hash. *)

From Coq Require Import List Bool Arith.
Import ListNotations.

Inductive tree := Node (tc pl : nat) (ops : list tree).

Definition tc t := match t with Node c _ _ => c end.
Definition pl t := match t with Node _ p _ => p end.
Definition ops t := match t with Node _ _ o => o end.

Fixpoint size (t : tree) : nat :=
  match t with Node _ _ o => S ((fix go l := match l with [] => 0 | x :: l' => size x + go l' end) o) end.
Definition sizes (l : list tree) := fold_right (fun x n => size x + n) 0 l.
Lemma size_eq c p o : size (Node c p o) = S (sizes o).
Proof. simpl. f_equal. Qed.

Lemma size_child c t : In c (ops t) -> size c < size t.
Proof.
  destruct t as [k p o]. rewrite size_eq. cbn [ops]. intro I. apply Nat.lt_succ_r.
  induction o as [|x o IH]; [destruct I|]. destruct I as [->|I]; cbn [sizes fold_right].
  - apply Nat.le_add_r.
  - apply (Nat.le_trans _ (sizes o)); [apply IH, I | apply Nat.le_add_l].
Qed.

(* induction principle with the IH for all operands *)
Lemma tree_ind' (P : tree -> Prop) :
  (forall c p o, Forall P o -> P (Node c p o)) -> forall t, P t.
Proof.
  intro Hn. fix IH 1. intros [c p o]. apply Hn.
  induction o as [|x o IHo]; constructor; auto.
Qed.

Lemma Forall2_combine A B (R : A -> B -> Prop) l m :
  Forall2 R l m <-> length l = length m /\ forall c d, In (c, d) (combine l m) -> R c d.
Proof.
  split.
  - induction 1 as [|x y l m Hxy _ [L F]]; cbn [length combine].
    + split; [reflexivity | intros c d []].
    + split; [f_equal; exact L|]. intros c d [E|I]; [injection E as <- <-; exact Hxy | apply F, I].
  - revert m; induction l as [|x l IH]; intros [|y m] [L F]; try discriminate; constructor.
    + apply F. left. reflexivity.
    + apply IH. split; [injection L; auto | intros c d I; apply F; right; exact I].
Qed.

Section Equals.
  Variable is_term : nat -> bool.           (* typecode -> _ufl_is_terminal_ *)
  Variable teq : nat -> nat -> bool.        (* terminal == (same class), on payloads *)
  Hypothesis teq_refl : forall p, teq p p = true.
  Hypothesis teq_sym : forall p q, teq p q = true -> teq q p = true.
  Hypothesis teq_trans : forall p q r, teq p q = true -> teq q r = true -> teq p r = true.

  Fixpoint seq (a b : tree) : bool :=
    match a, b with
    | Node ca pa oa, Node cb pb ob =>
        (ca =? cb) &&
        (if is_term ca then teq pa pb
         else (fix go (l m : list tree) : bool :=
                 match l, m with
                 | [], [] => true
                 | x :: l', y :: m' => seq x y && go l' m'
                 | _, _ => false
                 end) oa ob)
    end.

  Fixpoint seql (l m : list tree) : bool :=
    match l, m with
    | [], [] => true
    | x :: l', y :: m' => seq x y && seql l' m'
    | _, _ => false
    end.

  Lemma seq_unfold ca pa oa cb pb ob :
    seq (Node ca pa oa) (Node cb pb ob) =
    (ca =? cb) && (if is_term ca then teq pa pb else seql oa ob).
  Proof.
    reflexivity.
  Qed.

  Lemma seql_F2 l m : seql l m = true <-> Forall2 (fun x y => seq x y = true) l m.
  Proof.
    revert m. induction l as [|x l IH]; intros [|y m]; cbn [seql].
    - split; constructor.
    - split; [discriminate | inversion 1].
    - split; [discriminate | inversion 1].
    - rewrite andb_true_iff, IH. split; [intros [E F]; constructor; assumption | inversion 1; auto].
  Qed.

  (* [seq] read as an inductively generated relation: to show that [seq a b] implies [P a b] one may
     assume that the roots have one typecode and, for operators, that the operands are pairwise
     [seq] and [P] *)
  Lemma seq_ind2 (P : tree -> tree -> Prop) :
    (forall c pa pb oa ob,
        (if is_term c then teq pa pb = true
         else Forall2 (fun x y => seq x y = true /\ P x y) oa ob) ->
        P (Node c pa oa) (Node c pb ob)) ->
    forall a b, seq a b = true -> P a b.
  Proof.
    intro Hn. apply (tree_ind' (fun a => forall b, seq a b = true -> P a b)).
    intros c p o F [cb pb ob]. rewrite seq_unfold. intro E. apply andb_prop in E as [E1 E2].
    apply Nat.eqb_eq in E1. subst cb. apply Hn. destruct (is_term c); [exact E2|].
    apply seql_F2 in E2. revert F. induction E2; intro F; constructor.
    - split; [assumption|]. apply (Forall_inv F). assumption.
    - apply IHE2. exact (Forall_inv_tail F).
  Qed.

  Lemma seq_tc a b : seq a b = true -> tc a = tc b.
  Proof. destruct a, b. rewrite seq_unfold. intro E. apply andb_prop in E as [E _]. apply Nat.eqb_eq in E. auto. Qed.

  Lemma seq_refl : forall a, seq a a = true.
  Proof.
    apply tree_ind'. intros c p o F. rewrite seq_unfold, Nat.eqb_refl. cbn [andb].
    destruct (is_term c); [apply teq_refl|]. apply seql_F2. induction F; constructor; assumption.
  Qed.

  Lemma seq_sym : forall a b, seq a b = true -> seq b a = true.
  Proof.
    apply (seq_ind2 (fun a b => seq b a = true)). intros c pa pb oa ob H.
    rewrite seq_unfold, Nat.eqb_refl. cbn [andb]. destruct (is_term c); [apply teq_sym, H|].
    apply seql_F2. induction H; constructor; tauto.
  Qed.

  Lemma seq_trans : forall a b c, seq a b = true -> seq b c = true -> seq a c = true.
  Proof.
    intros a b c E. revert a b E c.
    apply (seq_ind2 (fun a b => forall c, seq b c = true -> seq a c = true)).
    intros k pa pb oa ob H [kc pc oc]. rewrite !seq_unfold. intro E. apply andb_prop in E as [E1 E2].
    rewrite E1. cbn [andb]. destruct (is_term k); [exact (teq_trans _ _ _ H E2)|].
    rewrite seql_F2 in *. revert oc E2.
    induction H as [|x y l m [_ T] _ IH]; inversion 1; subst; constructor; auto.
  Qed.

  Lemma seql_refl l : seql l l = true.
  Proof. apply seql_F2. induction l; constructor; [apply seq_refl | assumption]. Qed.

  Lemma seql_sym l m : seql l m = true -> seql m l = true.
  Proof. intro E. apply seql_F2 in E. apply seql_F2. induction E; constructor; [apply seq_sym|]; assumption. Qed.

  Lemma seql_trans l m n : seql l m = true -> seql m n = true -> seql l n = true.
  Proof.
    intros E1 E2. apply seql_F2 in E1, E2. apply seql_F2. revert n E2.
    induction E1; inversion 1; subst; constructor; [eapply seq_trans; eassumption | auto].
  Qed.

  Theorem C13_seq_equivalence :
    (forall a, seq a a = true) /\
    (forall a b, seq a b = true -> seq b a = true) /\
    (forall a b c, seq a b = true -> seq b c = true -> seq a c = true).
  Proof. split; [exact seq_refl | split; [exact seq_sym | exact seq_trans]]. Qed.

  Section Folds.
    Variable X : Type.
    Variable leaf : nat -> nat -> X.            (* terminal: typecode, payload *)
    Variable comb : nat -> list X -> X.         (* operator: typecode, operand results *)
    Hypothesis leaf_ok : forall c p q, teq p q = true -> leaf c p = leaf c q.

    Fixpoint fold (t : tree) : X :=
      match t with
      | Node c p o => if is_term c then leaf c p else comb c (map fold o)
      end.

    Lemma fold_seq : forall a b, seq a b = true -> fold a = fold b.
    Proof.
      apply (seq_ind2 (fun a b => fold a = fold b)). intros c pa pb oa ob H. cbn [fold].
      destruct (is_term c); [apply leaf_ok, H|]. f_equal.
      induction H; cbn [map]; f_equal; tauto.
    Qed.
  End Folds.

  Variable H : Type.
  Variable heq : H -> H -> bool.
  Hypothesis heq_refl : forall h, heq h h = true.
  Variable thash : nat -> nat -> H.                (* Terminal._ufl_compute_hash_ *)
  Variable hcomb : nat -> list H -> H.             (* hash((typecode, *operand hashes)) *)
  Hypothesis thash_ok : forall c p q, teq p q = true -> thash c p = thash c q.
  Definition hash := fold H thash hcomb.

  (* object identity: sound oracles *)
  Variable same : tree -> tree -> bool.            (* s is o *)
  Variable same_ops : tree -> tree -> bool.        (* s.ufl_operands is o.ufl_operands *)
  Hypothesis same_ok : forall a b, same a b = true -> a = b.
  Hypothesis same_ops_ok : forall a b, same_ops a b = true -> ops a = ops b.

  Definition memo_mem (x y : tree) (memo : list (tree * tree)) : bool :=
    existsb (fun p => same (fst p) x && same (snd p) y) memo.

  Lemma memo_mem_in x y memo : memo_mem x y memo = true -> In (x, y) memo.
  Proof.
    unfold memo_mem. intro E. apply existsb_exists in E as ([a b] & I & E). simpl in E.
    apply andb_prop in E as [E1 E2]. apply same_ok in E1, E2. subst. exact I.
  Qed.

  (* the `for s, o in zip(so, oo)` loop; None = `return False`; acc = pairs appended to `left` *)
  Fixpoint scan (ps : list (tree * tree)) (memo acc : list (tree * tree)) : option (list (tree * tree)) :=
    match ps with
    | [] => Some acc
    | (x, y) :: ps' =>
        if negb (tc x =? tc y) then None
        else if same x y then scan ps' memo acc
        else if memo_mem x y memo then scan ps' memo acc
        else scan ps' memo ((x, y) :: acc)
    end.

  (* the `while left:` loop; head of [left] = top of the stack *)
  Fixpoint loop (fuel : nat) (left memo : list (tree * tree)) : bool :=
    match fuel with
    | 0 => false
    | S f =>
        match left with
        | [] => true
        | (s, o) :: rest =>
            if is_term (tc s) then
              if teq (pl s) (pl o) then loop f rest ((s, o) :: memo) else false
            else if same_ops s o then loop f rest memo
            else if negb (length (ops s) =? length (ops o)) then false
            else match scan (combine (ops s) (ops o)) memo [] with
                 | None => false
                 | Some acc => loop f (acc ++ rest) ((s, o) :: memo)
                 end
        end
    end.

  (* fuel: a round replaces the top pair by pairs of its operands, so the sizes of the left trees on the
     stack ([msr]) decrease; [loop_complete] needs msr [(s, o)] = size s < fuel (one S more than needed) *)
  Definition expr_equals (s o : tree) : bool :=
    if negb (tc s =? tc o) || negb (heq (hash s) (hash o)) then false
    else if same s o || same_ops s o then true
    else loop (S (S (size s))) [(s, o)] [].

  Definition tc_eqb (p : tree * tree) : bool := tc (fst p) =? tc (snd p).
  (* the pairs that [scan] pushes: neither identical nor memoised *)
  Definition fresh (memo : list (tree * tree)) (p : tree * tree) : bool :=
    negb (same (fst p) (snd p)) && negb (memo_mem (fst p) (snd p) memo).

  Lemma scan_eq ps memo : forall acc, scan ps memo acc =
    if forallb tc_eqb ps then Some (rev (filter (fresh memo) ps) ++ acc) else None.
  Proof.
    induction ps as [|[x y] ps IH]; intro acc; [reflexivity|].
    cbn [scan forallb filter]. unfold tc_eqb at 1, fresh at 1. cbn [fst snd].
    destruct (tc x =? tc y); cbn [negb andb]; [|reflexivity].
    destruct (same x y); cbn [negb andb]; [apply IH|].
    destruct (memo_mem x y memo); cbn [negb andb]; [apply IH|].
    rewrite IH. cbn [rev]. rewrite <- app_assoc. reflexivity.
  Qed.

  Lemma scan_some ps memo acc res : scan ps memo acc = Some res ->
    (forall q, In q ps -> tc (fst q) = tc (snd q)) /\
    (forall q, In q res <-> In q ps /\ fresh memo q = true \/ In q acc).
  Proof.
    rewrite scan_eq. destruct (forallb tc_eqb ps) eqn:T; [|discriminate]. intro E. injection E as <-.
    split.
    - intros q Hq. apply Nat.eqb_eq. exact (proj1 (forallb_forall _ _) T q Hq).
    - intro q. rewrite in_app_iff, <- in_rev, filter_In. reflexivity.
  Qed.

  Definition good (p : tree * tree) : Prop := seq (fst p) (snd p) = true.

  Lemma stale_good memo c d : fresh memo (c, d) = false -> good (c, d) \/ In (c, d) memo.
  Proof.
    unfold fresh. cbn [fst snd]. destruct (same c d) eqn:S; cbn [negb andb].
    - intros _. left. apply same_ok in S. subst d. apply seq_refl.
    - intro Mm. right. apply memo_mem_in, negb_false_iff, Mm.
  Qed.

  Lemma good_of_ops x y : is_term (tc x) = false -> tc x = tc y -> ops x = ops y -> good (x, y).
  Proof.
    destruct x as [cx px ox], y as [cy py oy]. cbn [tc ops]. intros T <- <-. unfold good. cbn [fst snd].
    rewrite seq_unfold, Nat.eqb_refl, T. apply seql_refl.
  Qed.

  (* [p] is equal provided its operand pairs that are not known to be equal are in [W] *)
  Definition lc (W : tree * tree -> Prop) (p : tree * tree) : Prop :=
    let (x, y) := p in
    tc x = tc y /\
    (if is_term (tc x) then teq (pl x) (pl y) = true
     else length (ops x) = length (ops y) /\
          forall c d, In (c, d) (combine (ops x) (ops y)) -> good (c, d) \/ W (c, d)).

  Lemma lc_mono (W W' : tree * tree -> Prop) p :
    (forall q, W q -> good q \/ W' q) -> lc W p -> lc W' p.
  Proof.
    destruct p as [x y]. intros HW [E B]. split; [exact E|].
    destruct (is_term (tc x)); [exact B|]. destruct B as [Ln F]. split; [exact Ln|].
    intros c d I. destruct (F c d I) as [G|G]; [left; exact G | apply HW, G].
  Qed.

  (* a set of pairs that justifies each of its members consists of equal pairs: the operands of the
     left tree of a pair are smaller than it *)
  Lemma closed_good (W : tree * tree -> Prop) : (forall p, W p -> lc W p) -> forall p, W p -> good p.
  Proof.
    intros C p. remember (size (fst p)) as n eqn:En. revert p En.
    induction n as [n IH] using lt_wf_ind. intros [[cx px ox] [cy py oy]] En Wp.
    destruct (C _ Wp) as [E B]. cbn [tc pl ops fst] in *. subst cy. unfold good. cbn [fst snd].
    rewrite seq_unfold, Nat.eqb_refl. cbn [andb]. destruct (is_term cx); [exact B|].
    destruct B as [Ln F]. apply seql_F2, Forall2_combine. split; [exact Ln|]. intros c d I.
    destruct (F c d I) as [G|G]; [exact G|].
    apply (IH (size c)) with (p := (c, d)); [|reflexivity|exact G].
    subst n. apply (size_child c (Node cx px ox)). exact (in_combine_l _ _ _ _ I).
  Qed.

  (* state of the loop: memo [M], stack [L]; the memoised pairs are justified by [M] and [L] *)
  Definition pend (M L : list (tree * tree)) (q : tree * tree) : Prop := In q M \/ In q L.
  Definition Inv (M L : list (tree * tree)) : Prop :=
    (forall p, In p M -> lc (pend M L) p) /\ (forall p, In p L -> tc (fst p) = tc (snd p)).

  Lemma pend_push M s o acc rest q : pend M ((s, o) :: rest) q -> pend ((s, o) :: M) (acc ++ rest) q.
  Proof. unfold pend. cbn [In]. intros [Hq|[Hq|Hq]]; auto using in_or_app. Qed.

  (* one round of the loop: the pairs of the old state are equal or still in the new state ([T]), the
     new memo entries are justified by the new state ([N]) *)
  Lemma sound_step M L M' L' : Inv M L ->
    (forall q, pend M L q -> good q \/ pend M' L' q) ->
    (forall p, In p M' -> In p M \/ lc (pend M' L') p) ->
    (forall p, In p L' -> tc (fst p) = tc (snd p)) ->
    (Inv M' L' -> forall p, pend M' L' p -> good p) ->
    forall p, pend M L p -> good p.
  Proof.
    intros [IM _] T N TL K p Hp. destruct (T p Hp) as [G|G]; [exact G|]. refine (K _ p G).
    split; [|exact TL]. intros r Hr. destruct (N r Hr) as [Hm|Hl]; [|exact Hl].
    eapply lc_mono; [exact T | apply IM, Hm].
  Qed.

  Lemma loop_sound : forall fuel L M, Inv M L -> loop fuel L M = true -> forall p, pend M L p -> good p.
  Proof.
    induction fuel as [|fuel IH]; cbn [loop]; intros L M I E; [discriminate|].
    destruct L as [|[s o] rest].
    { apply closed_good. intros p [Hp|[]]. apply I, Hp. }
    assert (Tso : tc s = tc o) by (apply (proj2 I (s, o)); left; reflexivity).
    assert (TL : forall p, In p rest -> tc (fst p) = tc (snd p)) by (intros p Hp; apply I; right; exact Hp).
    destruct (is_term (tc s)) eqn:Ts.
    - destruct (teq (pl s) (pl o)) eqn:Te; [|discriminate].
      apply (sound_step _ _ ((s, o) :: M) ([] ++ rest) I); [| |exact TL|intro; apply IH; assumption].
      + intros q Hq. right. apply pend_push, Hq.
      + intros p [<-|Hp]; [right|left; exact Hp]. split; [exact Tso|]. rewrite Ts. exact Te.
    - destruct (same_ops s o) eqn:So.
      + apply (sound_step _ _ M rest I); [| |exact TL|intro; apply IH; assumption].
        * unfold pend. cbn [In]. intros q [Hq|[<-|Hq]]; auto.
          left. apply good_of_ops; [exact Ts | exact Tso | apply same_ops_ok, So].
        * intros p Hp. left. exact Hp.
      + destruct (length (ops s) =? length (ops o)) eqn:Ln; cbn [negb] in E; [|discriminate].
        apply Nat.eqb_eq in Ln.
        destruct (scan (combine (ops s) (ops o)) M []) as [acc|] eqn:Sc; [|discriminate].
        destruct (scan_some _ _ _ _ Sc) as [Tc Acc].
        apply (sound_step _ _ ((s, o) :: M) (acc ++ rest) I); [| | |intro; apply IH; assumption].
        * intros q Hq. right. apply pend_push, Hq.
        * intros p [<-|Hp]; [right|left; exact Hp]. split; [exact Tso|]. rewrite Ts. split; [exact Ln|].
          intros c d Hcd. destruct (fresh M (c, d)) eqn:Fr.
          -- right. right. apply in_or_app. left. apply Acc. left. split; assumption.
          -- destruct (stale_good _ _ _ Fr) as [G|G]; [left; exact G | right; left; right; exact G].
        * intros p Hp. apply in_app_or in Hp as [Hp|Hp]; [|apply TL, Hp].
          apply Acc in Hp as [[Hp _]|[]]. apply Tc, Hp.
  Qed.

  Definition msr (L : list (tree * tree)) := fold_right (fun p n => size (fst p) + n) 0 L.

  Lemma msr_app a b : msr (a ++ b) = msr a + msr b.
  Proof. induction a as [|x a IH]; [reflexivity|]. cbn [app msr fold_right]. fold (msr (a ++ b)). rewrite IH. apply Nat.add_assoc. Qed.

  Lemma msr_rev_filter f l : msr (rev (filter f l)) <= msr l.
  Proof.
    induction l as [|a l IH]; [apply Nat.le_refl|]. cbn [filter]. destruct (f a); cbn [rev msr fold_right].
    - rewrite msr_app, (Nat.add_comm (msr _)). cbn [msr fold_right]. rewrite Nat.add_0_r.
      apply Nat.add_le_mono_l, IH.
    - apply (Nat.le_trans _ _ _ IH), Nat.le_add_l.
  Qed.

  Lemma msr_combine l m : msr (combine l m) <= sizes l.
  Proof.
    revert m. induction l as [|x l IH]; intros [|y m]; cbn [combine msr sizes fold_right fst];
      try apply Nat.le_0_l.
    apply Nat.add_le_mono_l, IH.
  Qed.

  Lemma loop_complete : forall fuel L M,
    (forall p, In p L -> good p) -> msr L < fuel -> loop fuel L M = true.
  Proof.
    induction fuel as [|fuel IH]; intros L M G Ms; [inversion Ms|]. cbn [loop].
    destruct L as [|[[cs ps os] [co po oo]] rest]; [reflexivity|].
    assert (Gso := G _ (or_introl eq_refl)).
    assert (Gr : forall p, In p rest -> good p) by (intros p Hp; apply G; right; exact Hp).
    unfold good in Gso. cbn [fst snd] in Gso. rewrite seq_unfold in Gso. apply andb_prop in Gso as [_ E2].
    cbn [tc pl ops]. cbn [msr fold_right fst] in Ms. rewrite size_eq in Ms. apply le_S_n in Ms.
    change (sizes os + msr rest < fuel) in Ms.
    assert (Mr : msr rest < fuel) by (apply (Nat.le_lt_trans _ (sizes os + msr rest)); [apply Nat.le_add_l | exact Ms]).
    destruct (is_term cs).
    - rewrite E2. apply IH; assumption.
    - destruct (same_ops _ _); [apply IH; assumption|].
      apply seql_F2, Forall2_combine in E2 as [Ln F]. rewrite Ln, Nat.eqb_refl. cbn [negb].
      rewrite scan_eq, app_nil_r.
      replace (forallb tc_eqb (combine os oo)) with true.
      2:{ symmetry. apply forallb_forall. intros [c d] I. apply Nat.eqb_eq, seq_tc, F, I. }
      apply IH.
      + intros p Hp. apply in_app_or in Hp as [Hp|Hp]; [|apply Gr, Hp].
        apply in_rev, filter_In in Hp as [Hp _]. destruct p. apply F, Hp.
      + rewrite msr_app. apply (Nat.le_lt_trans _ (sizes os + msr rest)); [|exact Ms].
        apply Nat.add_le_mono_r, (Nat.le_trans _ _ _ (msr_rev_filter _ _)), msr_combine.
  Qed.

  (* The implementation's == on operators decides structural equality.
     (For a TERMINAL self the function would accept any other terminal of the same class and hash,
     because Terminal.ufl_operands is the one shared tuple (): `self.ufl_operands is other.ufl_operands`
     holds; this is why every terminal class overrides __eq__, and why [py_eq] below dispatches.) *)
  Theorem C13_expr_equals_spec : forall s o, is_term (tc s) = false ->
    (expr_equals s o = true <-> seq s o = true).
  Proof.
    intros s o Ts. unfold expr_equals. split.
    - destruct (tc s =? tc o) eqn:T; [|cbn [negb orb]; discriminate]. apply Nat.eqb_eq in T.
      destruct (heq (hash s) (hash o)); [|cbn [negb orb]; discriminate].
      cbn [negb orb].
      destruct (same s o) eqn:Sm; cbn [orb].
      + intros _. apply same_ok in Sm. subst. apply seq_refl.
      + destruct (same_ops s o) eqn:So.
        * intros _. apply same_ops_ok in So. apply (good_of_ops s o); auto.
        * intro E.
          assert (I : Inv [] [(s, o)]).
          { split; [intros p []|]. intros p [<-|[]]. exact T. }
          apply (loop_sound _ _ _ I E (s, o)). right. left. reflexivity.
    - intro E. pose proof (seq_tc _ _ E) as T. rewrite T, Nat.eqb_refl. cbn [negb orb].
      unfold hash. rewrite (fold_seq H thash hcomb thash_ok _ _ E), heq_refl. cbn [negb orb].
      destruct (same s o || same_ops s o); [reflexivity|].
      apply loop_complete.
      + intros p [<-|[]]. exact E.
      + cbn [msr fold_right fst]. rewrite Nat.add_0_r. apply Nat.lt_lt_succ_r, Nat.lt_succ_diag_r.
  Qed.

  (* Python's `a == b` on expressions: terminal classes use their own __eq__ (class guard + teq),
     operators use expr_equals *)
  Definition py_eq (s o : tree) : bool :=
    if is_term (tc s) then (tc s =? tc o) && teq (pl s) (pl o) else expr_equals s o.

  Theorem C13_py_eq_spec : forall s o, py_eq s o = true <-> seq s o = true.
  Proof.
    intros s o. unfold py_eq. destruct (is_term (tc s)) eqn:Ts.
    - destruct s as [cs ps os], o as [co po oo]. rewrite seq_unfold. simpl in *. rewrite Ts. tauto.
    - apply C13_expr_equals_spec; auto.
  Qed.

  Theorem C13_py_eq_equivalence :
    (forall a, py_eq a a = true) /\
    (forall a b, py_eq a b = true -> py_eq b a = true) /\
    (forall a b c, py_eq a b = true -> py_eq b c = true -> py_eq a c = true).
  Proof.
    repeat split; intros.
    - apply C13_py_eq_spec, seq_refl.
    - apply C13_py_eq_spec, seq_sym, C13_py_eq_spec; auto.
    - apply C13_py_eq_spec. eapply seq_trans; apply C13_py_eq_spec; eauto.
  Qed.

  (* equal expressions are interchangeable: every attribute computed bottom-up from the class, the
     terminal data (up to the terminal's ==) and the operands' attributes is equal: hash, repr string,
     shape / free indices / index dimensions, signature data, value *)
  Theorem C13_equal_interchange :
    forall (X : Type) (leaf : nat -> nat -> X) (comb : nat -> list X -> X),
      (forall c p q, teq p q = true -> leaf c p = leaf c q) ->
      forall a b, py_eq a b = true -> fold X leaf comb a = fold X leaf comb b.
  Proof. intros X leaf comb L a b E. apply fold_seq; auto. apply C13_py_eq_spec; auto. Qed.

  Corollary C13_equal_hash : forall a b, py_eq a b = true -> hash a = hash b.
  Proof. exact (C13_equal_interchange H thash hcomb thash_ok). Qed.

  (* a successful expr_equals ends with `self.ufl_operands = other.ufl_operands` *)
  Definition swing (s o : tree) : tree := Node (tc s) (pl s) (ops o).

  Theorem C13_compare_pure : forall s o, is_term (tc s) = false -> expr_equals s o = true ->
    seq (swing s o) s = true /\
    forall (X : Type) (leaf : nat -> nat -> X) (comb : nat -> list X -> X),
      (forall c p q, teq p q = true -> leaf c p = leaf c q) ->
      fold X leaf comb (swing s o) = fold X leaf comb s.
  Proof.
    intros s o Ts E. apply C13_expr_equals_spec in E; auto.
    assert (Sq : seq (swing s o) s = true).
    { apply seq_sym. destruct s as [cs ps os], o as [co po oo]. unfold swing. cbn [tc pl ops] in *.
      rewrite seq_unfold in E. rewrite seq_unfold. apply andb_prop in E as [E1 E2]. rewrite Nat.eqb_refl.
      rewrite Ts in *. exact E2. }
    split; auto. intros. apply fold_seq; auto.
  Qed.
End Equals.

(* A heap of expression objects and sequences of comparisons.  Cell a holds (typecode, payload,
   operand addresses); operands have smaller addresses (expressions are built bottom-up).  `==` on
   two addresses runs expr_equals on the trees they denote and, when it answers True on operators,
   swings the operand pointers of the left object to those of the right one.  For every sequence of
   comparisons in which the operands of the right object have smaller addresses than the left object
   (a restriction of this model, see [compare_sim]; it excludes `old == new` for a `new` built after
   `old`) and every address, the denoted tree stays seq-equal to the original one, hence keeps its repr,
   hash, shape and every other bottom-up attribute. *)
Section Heap.
  Variable is_term : nat -> bool.
  Variable teq : nat -> nat -> bool.
  Hypothesis teq_refl : forall p, teq p p = true.
  Hypothesis teq_sym : forall p q, teq p q = true -> teq q p = true.
  Hypothesis teq_trans : forall p q r, teq p q = true -> teq q r = true -> teq p r = true.

  Notation seq := (seq is_term teq).
  Notation seql := (seql is_term teq).

  Record cell := { ctc : nat; cpl : nat; cops : list nat }.
  Definition heap := list cell.        (* address = position *)

  (* the tree denoted by address a; fuel = a + 1 suffices when operands have smaller addresses *)
  Fixpoint deep (fuel : nat) (h : heap) (a : nat) : tree :=
    match fuel with
    | 0 => Node 0 0 []
    | S f => match nth_error h a with
             | None => Node 0 0 []
             | Some c => Node (ctc c) (cpl c) (map (deep f h) (cops c))
             end
    end.

  Definition wfh (h : heap) : Prop :=
    forall a c, nth_error h a = Some c -> forall b, In b (cops c) -> b < a.

  Lemma deep_fuel h : wfh h -> forall f a, a < f -> forall g, a < g -> deep f h a = deep g h a.
  Proof.
    intro W. induction f as [|f IH]; intros a L g Lg; [inversion L|]. destruct g; [inversion Lg|].
    cbn [deep]. destruct (nth_error h a) eqn:E; [|reflexivity]. f_equal. apply map_ext_in. intros b I.
    pose proof (W a c E b I) as Lb. apply le_S_n in L, Lg.
    apply IH; eapply Nat.lt_le_trans; eassumption.
  Qed.

  Definition val (h : heap) (a : nat) : tree := deep (S a) h a.

  Lemma val_unfold h a c : wfh h -> nth_error h a = Some c ->
    val h a = Node (ctc c) (cpl c) (map (val h) (cops c)).
  Proof.
    intros W E. unfold val at 1. cbn [deep]. rewrite E. f_equal. apply map_ext_in. intros b I.
    pose proof (W a c E b I). unfold val. apply deep_fuel; [exact W | assumption | apply Nat.lt_succ_diag_r].
  Qed.

  Lemma val_None h a : nth_error h a = None -> val h a = Node 0 0 [].
  Proof. intro E. unfold val. cbn [deep]. rewrite E. reflexivity. Qed.

  (* replace cell a *)
  Fixpoint upd (h : heap) (a : nat) (c : cell) : heap :=
    match h, a with
    | [], _ => []
    | _ :: t, 0 => c :: t
    | x :: t, S a' => x :: upd t a' c
    end.

  Lemma nth_upd h a c b : nth_error (upd h a c) b =
    if b =? a then (match nth_error h a with Some _ => Some c | None => None end) else nth_error h b.
  Proof.
    revert a b. induction h as [|x h IH]; intros [|a] [|b]; simpl; auto.
    - destruct (b =? a); auto.
  Qed.

  Lemma upd_length h a c : length (upd h a c) = length h.
  Proof. revert a. induction h as [|x h IH]; intros [|a]; simpl; auto. Qed.

  Lemma wfh_upd h a c : wfh h -> (forall y, In y (cops c) -> y < a) -> wfh (upd h a c).
  Proof.
    intros W B x cx E y I. rewrite nth_upd in E. destruct (Nat.eqb_spec x a) as [->|_].
    - destruct (nth_error h a); [|discriminate]. injection E as <-. apply B, I.
    - exact (W x cx E y I).
  Qed.

  (* the heap operation performed by `x == y` on addresses a b, given the verdict of expr_equals *)
  Definition compare_op (verdict : bool) (h : heap) (a b : nat) : heap :=
    match nth_error h a, nth_error h b with
    | Some ca, Some cb =>
        if verdict && negb (is_term (ctc ca))
        then upd h a {| ctc := ctc ca; cpl := cpl ca; cops := cops cb |}
        else h
    | _, _ => h
    end.

  Definition sim (h h' : heap) : Prop :=
    length h = length h' /\ forall a, seq (val h' a) (val h a) = true.

  Lemma sim_refl h : sim h h.
  Proof. split; [reflexivity|]. intro a. apply seq_refl, teq_refl. Qed.

  Lemma sim_trans h1 h2 h3 : sim h1 h2 -> sim h2 h3 -> sim h1 h3.
  Proof.
    intros [L1 S1] [L2 S2]. split; [congruence|]. intro a.
    eapply seq_trans; eauto.
  Qed.

  Lemma seql_map (f g : nat -> tree) (l : list nat) : (forall b, In b l -> seq (f b) (g b) = true) ->
    seql (map f l) (map g l) = true.
  Proof. induction l; simpl; auto. intro F. rewrite F, IHl; auto. Qed.

  (* one comparison whose True verdict is correct (C13_expr_equals_spec).  The operands of the right
     object must lie below the left one, so that the left object still points downwards after the
     swing: [val] reads the heap in the fixed address order *)
  Lemma compare_sim h a b verdict :
    wfh h ->
    (verdict = true -> seq (val h a) (val h b) = true) ->
    (forall cb, nth_error h b = Some cb -> forall x, In x (cops cb) -> x < a) ->
    wfh (compare_op verdict h a b) /\ sim h (compare_op verdict h a b).
  Proof.
    intros W V B. unfold compare_op.
    destruct (nth_error h a) as [ca|] eqn:Ea; [|split; [exact W | apply sim_refl]].
    destruct (nth_error h b) as [cb|] eqn:Eb; [|split; [exact W | apply sim_refl]].
    destruct (verdict && negb (is_term (ctc ca))) eqn:Sw; [|split; [exact W | apply sim_refl]].
    apply andb_prop in Sw as [-> Ta]. apply negb_true_iff in Ta.
    specialize (V eq_refl). specialize (B cb eq_refl).
    rewrite (val_unfold h a ca W Ea), (val_unfold h b cb W Eb), seq_unfold, Ta in V.
    apply andb_prop in V as [_ V].
    set (c' := {| ctc := ctc ca; cpl := cpl ca; cops := cops cb |}). set (h' := upd h a c').
    assert (W' : wfh h') by (apply wfh_upd; assumption).
    split; [exact W'|]. split; [symmetry; apply upd_length|].
    induction a0 as [x IH] using lt_wf_ind.
    assert (E' : nth_error h' x = if x =? a then Some c' else nth_error h x)
      by (unfold h'; rewrite nth_upd, Ea; reflexivity).
    destruct (Nat.eqb_spec x a) as [->|_].
    - (* the operands of cb denote in h' what they denote in h, and those are equal to ca's *)
      rewrite (val_unfold h' a c' W' E'), (val_unfold h a ca W Ea), seq_unfold, Nat.eqb_refl. cbn [ctc cpl cops c' andb].
      rewrite Ta. apply (seql_trans _ _ teq_trans _ (map (val h) (cops cb))).
      + apply seql_map. intros y I. apply IH, B, I.
      + apply seql_sym; assumption.
    - destruct (nth_error h x) as [cx|] eqn:Ex.
      + rewrite (val_unfold h' x cx W' E'), (val_unfold h x cx W Ex), seq_unfold, Nat.eqb_refl. cbn [andb].
        destruct (is_term (ctc cx)); [apply teq_refl|].
        apply seql_map. intros y I. apply IH, (W x cx Ex y I).
      + rewrite (val_None h' x E'), (val_None h x Ex). apply seq_refl, teq_refl.
  Qed.

  (* a history of comparisons; each step carries the verdict the implementation computed *)
  Inductive steps : heap -> heap -> Prop :=
  | steps_nil h : steps h h
  | steps_cons h a b verdict h2 :
      (verdict = true -> seq (val h a) (val h b) = true) ->
      (forall cb, nth_error h b = Some cb -> forall x, In x (cops cb) -> x < a) ->
      steps (compare_op verdict h a b) h2 -> steps h h2.

  (* for all histories [steps] (each comparison under the address condition of [compare_sim]) and ALL
     objects: the denoted expression is unchanged up to ==, and so is every bottom-up attribute (repr,
     hash, shape, signature data, value) *)
  Theorem C13_compare_history_pure : forall h h', wfh h -> steps h h' ->
    wfh h' /\ sim h h' /\
    forall (X : Type) (leaf : nat -> nat -> X) (comb : nat -> list X -> X),
      (forall c p q, teq p q = true -> leaf c p = leaf c q) ->
      forall a, fold is_term X leaf comb (val h' a) = fold is_term X leaf comb (val h a).
  Proof.
    intros h h' W St.
    assert (A : wfh h' /\ sim h h').
    { induction St as [h|h a b verdict h2 V B _ IH].
      - split; [exact W | apply sim_refl].
      - destruct (compare_sim h a b verdict W V B) as [W1 S1].
        destruct (IH W1) as [W2 S2]. split; [exact W2 | eapply sim_trans; eassumption]. }
    destruct A as [W' S]. split; [exact W'|]. split; [exact S|].
    intros X leaf comb L a. apply (fold_seq is_term teq); [exact L | apply S].
  Qed.
End Heap.

Print Assumptions C13_expr_equals_spec.
Print Assumptions C13_py_eq_spec.
Print Assumptions C13_py_eq_equivalence.
Print Assumptions C13_equal_interchange.
Print Assumptions C13_compare_pure.
Print Assumptions C13_compare_history_pure.
