(* C01 - the tactic of the end-to-end obligations coq/Gen/C01e2e*_t2_*.v (py/C01_e2e.py):

     facts -> den (preprocessed integrand) = den (scaling factor) * den (integrand)

   where each fact gives a value [env s k i c] of the physical frame (a form argument, a geometric
   quantity) as the denotation of what the pullback / the geometry lowering replaces it by, and the
   chain rule through the cell map (Section hypotheses [Hchain], [HchainT] of the generated files)
   relates physical and reference derivatives.  The proof: evaluate den, use the chain rule and the
   facts on the right side until both sides speak of the same reference-frame values, close by
   ring / field.

   The generated files state everything over Section variables; the tactics take the ones they mention
   as arguments ([env], [Dx], [fn], ..., the hypotheses [Hchain], [HchainT], [char0]), under the names
   of coqgen.HEADER.  Each generated file binds them once (Ltac [e2e], [e2eT] of its header). *)
Require Import UFLV.Core.Tac.

(* ---- closing: ring sees applications of uninterpreted symbols as atoms ---- *)

(* Every distinct application [fn f X] gets a name; an application whose argument ring proves equal
   to that of a named one is replaced by the name.  The remaining goal is polynomial in the names. *)
Ltac abs_fn fn :=
  repeat match goal with
  | |- context [fn ?f ?X] =>
      first [ match goal with
              | a := fn f ?Y |- _ => replace (fn f X) with a by (unfold a; f_equal; ring)
              end
            | let a := fresh "sq" in set (a := fn f X) in * ]
  end.
(* The same for a unary symbol [u], innermost application first, so that an argument is final when
   it is compared. *)
Ltac abs_un u :=
  repeat match goal with
  | |- context [u ?X] =>
      lazymatch X with context [u _] => fail | _ => idtac end;
      first [ match goal with
              | a := u ?Y |- _ => replace (u X) with a by (unfold a; f_equal; ring)
              end
            | let a := fresh "at" in set (a := u X) in * ]
  end.
Ltac abs_all fn abs re im conj := abs_fn fn; abs_un abs; abs_un re; abs_un im; abs_un conj.

(* [names] is [abs_all] on the symbols of the file, [unif] its [unify1] (Core/Tac.v [unify_args]):
   most goals are closed by ring as they stand; naming is tried before field because a goal with
   square roots of equal sums needs no quotient to be cleared; pairwise unification is the last
   resort (it retries all pairs after every replacement). *)
Ltac finish char0 names unif :=
  first [ reflexivity | ring
        | names; first [ reflexivity | ring | field; nz_solve char0 ]
        | field; nz_solve char0
        | repeat unif; first [ reflexivity | ring | field; nz_solve char0 ] ].

(* ---- from the statement to an equation over variables ---- *)

(* Every value [env s k i c] in the goal gets a name.  It carries unary numerals (k is the kind of
   terminal, up to 56), which is most of the evaluated statement: the later steps work on the named
   goal.  [pose] + [change] and not [generalize], which retypes the whole goal for each value; the
   body of a name is kept, [chainT] reads it. *)
Ltac name_env env :=
  repeat match goal with
  | |- context [env ?s ?k ?i ?c] =>
      lazymatch goal with
      | y := env s k i c |- _ => change (env s k i c) with y
      | _ => let x := fresh "x" in pose (x := env s k i c); change (env s k i c) with x
      end
  end.

(* Every physical derivative [Dx j x] gets a name, and its chain-rule expansion becomes one more
   premise [d = sum_k K[k,j] * DX k x]: a fact like the traced ones.  After [name_env], so that the
   two [generalize] act on the small goal. *)
Ltac chain Hchain Dx s :=
  repeat match goal with
  | |- context [Dx ?j ?x] => generalize (Hchain s j x); generalize (Dx j x); intro
  end.
(* On an interior facet each side has its own cell map: the side is read off the value that is
   differentiated (the body of its name); [HchainT] speaks of [env s k i c], which is folded back. *)
Ltac chainT env HchainT Dx :=
  repeat match goal with
  | |- context [Dx ?j ?x] =>
      let v := eval unfold x in x in
      lazymatch v with
      | env ?s ?k ?i ?c =>
          generalize (HchainT s k i c j); change (env s k i c) with x; generalize (Dx j x); intro
      end
  end.

(* A fact [a = ...] is used wherever [a] occurs, the earlier premise first: the premises are in the
   order in which the quantities were traced, one before those its replacement is made of, so that
   few are needed twice. *)
Ltac rewrite_facts :=
  repeat match reverse goal with
  | H : ?a = _ |- _ => match goal with |- context [a] => progress rewrite H end
  end.
(* The facts speak of what the specification on the right mentions: they are used there first, with
   the left side (what the code built, large already) set aside under a name, so that each rewrite
   handles a small goal; then on the whole goal, where usually nothing is left to do. *)
Ltac use_facts :=
  match goal with
  | |- ?L = ?R => let l := fresh "l" in pose (l := L); change (l = R); rewrite_facts; unfold l; clear l
  end;
  rewrite_facts; repeat match goal with H : _ = _ |- _ => clear H end.

(* The whole statement, premises included, is evaluated at once ([vm_compute] unfolds [<>], which
   [nz_solve] wants folded); [chain] is [chain] or [chainT] above and may introduce values of K that
   have no name yet; [fin] is [finish]. *)
Ltac e2e_with env chain fin :=
  vm_compute; name_env env; chain; name_env env; intros;
  repeat match goal with H : ?x = ?z -> False |- _ => change (x <> z) in H end;
  use_facts; fin.
