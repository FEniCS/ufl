(* C05 - free-index soundness of the calculus and the UNGUARDED soundness of the repaired
   ComponentTensor shortcut.

   [C05_den_agree]: for every well-formed expression e (predicate [wfx]: the checks the Python constructors
   perform - equal shapes/free indices of Sum operands and ListTensor entries, scalar operands of
   Product ..., rank of the multiindex, conditions without free indices) and every well-typed component c,
   the value [den s rho e c] depends on the index valuation rho only through the indices listed in
   [fidx e] (= ufl_free_indices).  Hence the SYNTACTIC test "j not in A.ufl_free_indices" that the
   repaired code performs implies the semantic independence [indep] that the *_partial theorems of
   Props/C05_model.v assume.  With it the repaired shortcut as_tensor(A[ii], ii) -> A
   (ComponentTensor.__new__ of /repo a0002a9, model flag fx_cn = true) is sound without any hygiene
   hypothesis: [C05_component_tensor_repaired_sound].

   The fragment covered by [wfx] is the index calculus: terminals, literals, algebra, complex parts,
   Indexed, IndexSum, ComponentTensor, ListTensor, Conditional, min/max, math functions, variables and
   restrictions; derivative and compound tensor-algebra nodes are outside ([wfx] is False on them). *)
Require Import UFLV.Core.Facts.
Require Import UFLV.Props.C05_model.
Require Import Lia.

Fixpoint wfx (e : expr) : Prop :=
  match e with
  | Zero _ _ | IntV _ | RealV _ _ | CplxV _ _ _ _ | RatV _ _ | Identity _ | PermSym _ | Term _ _ _ => True
  | Sum a b => wfx a /\ wfx b /\ shape a = shape b /\ fidx a = fidx b
  | Product a b | Division a b | Power a b | MinV a b | MaxV a b | Atan2 a b =>
      wfx a /\ wfx b /\ shape a = [] /\ shape b = []
  | Bessel _ nu a => wfx nu /\ wfx a /\ shape nu = [] /\ shape a = [] /\ fidx nu = []
  | Abs a | Conj a | Real a | Imag a | Vari a _ | Restricted _ a => wfx a
  | Math _ a => wfx a /\ shape a = []
  | Indexed a mi => wfx a /\ length mi = length (shape a)
  | IndexSum a _ _ => wfx a
  | ComponentTensor a _ => wfx a /\ shape a = []
  | ListTensor es =>
      es <> [] /\ (fix all (l : list expr) : Prop := match l with [] => True | x :: t => wfx x /\ all t end) es /\
      uniform es
  | Conditional c t f => wfc c /\ wfx t /\ wfx f /\ shape t = shape f /\ fidx t = fidx f
  | _ => False
  end
with wfc (c : cond) : Prop :=
  match c with
  | Cmp _ a b => wfx a /\ wfx b /\ shape a = [] /\ shape b = [] /\ fidx a = [] /\ fidx b = []
  | AndC a b | OrC a b => wfc a /\ wfc b
  | NotC a => wfc a
  end.

Lemma wfx_lt_in es : wfx (ListTensor es) -> forall x, In x es -> wfx x.
Proof.
  simpl. intros [_ [H _]]. induction es as [|y t IH]; intros x Hx; [destruct Hx|].
  destruct H as [Hy Ht]. destruct Hx as [->|Hx]; auto.
Qed.

(* ids of merged / filtered free-index lists *)
Lemma ids_merge x l1 : forall l2, In x (ids (fi_merge l1 l2)) <-> In x (ids l1) \/ In x (ids l2).
Proof.
  induction l1 as [|[j e] t IH]; intros l2.
  - unfold fi_merge, ids. simpl. tauto.
  - rewrite fi_merge_cons, IH, ids_insert. unfold ids. simpl. intuition (subst; auto).
Qed.

Lemma ids_remove x i l : In x (ids (fi_remove i l)) <-> In x (ids l) /\ x <> i.
Proof.
  induction l as [|[j e] t IH]; [simpl; tauto|]. rewrite fi_remove_cons. simpl.
  destruct (Nat.eqb_spec j i) as [->|E]; simpl; rewrite IH; intuition congruence.
Qed.

Definition fold_rm (jj : list (nat * nat)) (l : list (nat * nat)) : list (nat * nat) :=
  fold_left (fun acc p => fi_remove (fst p) acc) jj l.

Lemma ids_fold_rm x jj : forall l, In x (ids (fold_rm jj l)) <-> In x (ids l) /\ ~ In x (ids jj).
Proof.
  induction jj as [|[j d] jj IH]; intros l; simpl; [tauto|].
  unfold fold_rm in *. simpl. rewrite IH, ids_remove. simpl. split.
  - intros [[H1 H2] H3]. split; auto. intros [E|E]; auto.
  - intros [H1 H2]. repeat split; auto.
Qed.

Lemma mi_has_in j mi : mi_has j mi = true <-> In (Free j) mi.
Proof.
  unfold mi_has. rewrite existsb_exists. split.
  - intros [[n|i] [H E]]; [discriminate|]. apply Nat.eqb_eq in E. subst. exact H.
  - intros H. exists (Free j). split; [exact H|apply Nat.eqb_refl].
Qed.

Lemma mi_free_has j mi : forall sh, length mi = length sh -> In (Free j) mi -> In j (ids (mi_free mi sh)).
Proof.
  induction mi as [|x mi IH]; intros sh L H; [destruct H|].
  destruct sh as [|d sh]; [discriminate|]. simpl in L. injection L as L.
  destruct H as [->|H].
  - simpl. apply ids_insert. auto.
  - destruct x as [n|i]; simpl; [apply IH; auto|]. apply ids_insert. right. apply IH; auto.
Qed.

Lemma upds_in_same x ix : forall c r1 r2, length c = length ix -> In x (ids ix) ->
  upds r1 ix c x = upds r2 ix c x.
Proof.
  induction ix as [|[i d] ix IH]; intros c r1 r2 L H; [destruct H|].
  destruct c as [|v c]; [discriminate|]. simpl in L. injection L as L. simpl upds.
  destruct (in_dec Nat.eq_dec x (ids ix)) as [Hx|Hx].
  - apply IH; auto.
  - rewrite !upds_notin by exact Hx. simpl in H. destruct H as [<-|H]; [|contradiction].
    unfold upd. rewrite Nat.eqb_refl. reflexivity.
Qed.

Section Agree.
Variable A : ualg.
Open Scope K_scope.
Variable env : side -> nat -> nat -> list nat -> A.
Variables D DX : nat -> A -> A.
Variable ki : A.
Notation DEN := (@den A env D DX ki).
Notation DENC := (@denc A env D DX ki).

Definition agree (l : list (nat * nat)) (r1 r2 : nat -> nat) : Prop := forall x, In x (ids l) -> r1 x = r2 x.

Lemma agree_merge_l l1 l2 r1 r2 : agree (fi_merge l1 l2) r1 r2 -> agree l1 r1 r2.
Proof. intros H x Hx. apply H. apply ids_merge. auto. Qed.
Lemma agree_merge_r l1 l2 r1 r2 : agree (fi_merge l1 l2) r1 r2 -> agree l2 r1 r2.
Proof. intros H x Hx. apply H. apply ids_merge. auto. Qed.
Lemma agree_nil r1 r2 : agree [] r1 r2.
Proof. intros x []. Qed.

Lemma den_agree_both :
  (forall e, wfx e -> forall s r1 r2 c, length c = length (shape e) ->
     agree (fidx e) r1 r2 -> DEN s r1 e c = DEN s r2 e c) /\
  (forall cn, wfc cn -> forall s r1 r2, DENC s r1 cn = DENC s r2 cn).
Proof.
  apply size_ind2.
  - intros e IHe IHc W s r1 r2 c L AG.
    (* two scalar operands, free indices merged *)
    assert (S2 : forall a b, size a < size e -> size b < size e ->
              wfx a /\ wfx b /\ shape a = [] /\ shape b = [] -> agree (fi_merge (fidx a) (fidx b)) r1 r2 ->
              DEN s r1 a [] = DEN s r2 a [] /\ DEN s r1 b [] = DEN s r2 b []).
    { intros a b Ha Hb [Wa [Wb [Ea Eb]]] G.
      split; apply IHe; auto; try (rewrite ?Ea, ?Eb; reflexivity);
        [eapply agree_merge_l|eapply agree_merge_r]; exact G. }
    destruct e; cbn [wfx] in W; try contradiction; try reflexivity;
      cbn [size] in IHe, IHc, S2; cbn [shape fidx] in L, AG;
      (* Product, Division, Power, MinV, MaxV, Atan2 *)
      try (destruct (S2 e1 e2) as [E1 E2]; [lia|lia|exact W|exact AG|];
           rewrite ?den_Power; cbn [den]; rewrite E1, E2; reflexivity);
      (* Abs, Conj, Real, Imag, Vari, Restricted *)
      try (cbn [den]; rewrite (IHe e ltac:(lia) W _ r1 r2 c L AG); reflexivity).
    + (* Sum *) destruct W as [W1 [W2 [Es Ef]]]. cbn [den].
      rewrite (IHe e1 ltac:(lia) W1 s r1 r2 c L AG), (IHe e2 ltac:(lia) W2 s r1 r2 c); [reflexivity| |].
      * rewrite <- Es. exact L.
      * rewrite <- Ef. exact AG.
    + (* Indexed: the free indices of mi are among the free indices of the node *)
      destruct W as [W1 Lm]. cbn [den].
      assert (E : map (idxval r1) mi = map (idxval r2) mi).
      { apply map_ext_in. intros [k|j] Hj; [reflexivity|]. simpl. apply AG. apply ids_merge. right.
        apply mi_free_has; auto. }
      rewrite E. apply IHe; [lia|exact W1|rewrite map_length; exact Lm|eapply agree_merge_l; exact AG].
    + (* IndexSum *) cbn [den]. apply ksum_ext. intros k _. apply IHe; [lia|exact W|exact L|].
      intros x Hx. unfold upd. destruct (Nat.eqb_spec x i) as [|E]; [reflexivity|].
      apply AG. apply ids_remove. auto.
    + (* ComponentTensor: a bound index has the same value on both sides, any other one is free *)
      destruct W as [W1 E1]. cbn [den]. rewrite map_length in L.
      apply IHe; [lia|exact W1|rewrite E1; reflexivity|].
      intros x Hx. destruct (in_dec Nat.eq_dec x (ids ix)) as [Hi|Hi].
      * apply upds_in_same; auto.
      * rewrite !upds_notin by exact Hi. apply AG. apply (ids_fold_rm x ix (fidx e)). auto.
    + (* ListTensor *) destruct W as [NE [Wall U]]. rewrite !den_ListTensor.
      destruct c as [|k c']; [reflexivity|].
      destruct (nth_error es k) as [x|] eqn:N; [|reflexivity]. apply nth_error_In in N.
      destruct (U x N) as [Ux Uf]. destruct es as [|e0 es']; [contradiction|].
      apply IHe.
      * exact (size_In_ListTensor x _ N).
      * apply (wfx_lt_in (e0 :: es')); [cbn [wfx]|]; auto.
      * rewrite Ux. injection L as L. exact L.
      * rewrite Uf. exact AG.
    + (* Conditional *) destruct W as [Wc [Wt [Wf [Es Ef]]]]. rewrite !den_Conditional.
      rewrite (IHc c0 ltac:(lia) Wc s r1 r2), (IHe e1 ltac:(lia) Wt s r1 r2 c L AG),
              (IHe e2 ltac:(lia) Wf s r1 r2 c); [reflexivity| |].
      * rewrite <- Es. exact L.
      * rewrite <- Ef. exact AG.
    + (* Math *) destruct W as [W1 E1]. cbn [den].
      rewrite (IHe e ltac:(lia) W1 s r1 r2 [] ltac:(rewrite E1; reflexivity) AG). reflexivity.
    + (* Bessel: the order has no free indices *)
      destruct W as [W1 [W2 [E1 [E2 F1]]]]. cbn [den].
      assert (G1 : agree (fidx e1) r1 r2) by (rewrite F1; apply agree_nil).
      rewrite (IHe e1 ltac:(lia) W1 s r1 r2 [] ltac:(rewrite E1; reflexivity) G1),
              (IHe e2 ltac:(lia) W2 s r1 r2 [] ltac:(rewrite E2; reflexivity) AG). reflexivity.
  - intros cn IHe IHc W s r1 r2.
    destruct cn; cbn [wfc] in W; cbn [csize] in IHe, IHc; rewrite ?denc_Cmp; cbn [denc].
    + (* Cmp: the operands have no free indices *)
      destruct W as [W1 [W2 [E1 [E2 [F1 F2]]]]].
      assert (G1 : agree (fidx a) r1 r2) by (rewrite F1; apply agree_nil).
      assert (G2 : agree (fidx b) r1 r2) by (rewrite F2; apply agree_nil).
      rewrite (IHe a ltac:(lia) W1 s r1 r2 [] ltac:(rewrite E1; reflexivity) G1),
              (IHe b ltac:(lia) W2 s r1 r2 [] ltac:(rewrite E2; reflexivity) G2). reflexivity.
    + destruct W as [W1 W2]. rewrite (IHc cn1 ltac:(lia) W1 s r1 r2), (IHc cn2 ltac:(lia) W2 s r1 r2). reflexivity.
    + destruct W as [W1 W2]. rewrite (IHc cn1 ltac:(lia) W1 s r1 r2), (IHc cn2 ltac:(lia) W2 s r1 r2). reflexivity.
    + rewrite (IHc cn ltac:(lia) W s r1 r2). reflexivity.
Qed.

(* the value of a well-formed expression depends on the index valuation only through its free indices *)
Theorem C05_den_agree e s r1 r2 c :
  wfx e -> length c = length (shape e) -> agree (fidx e) r1 r2 -> DEN s r1 e c = DEN s r2 e c.
Proof. intros W. apply (proj1 den_agree_both e W). Qed.

(* ... hence "j is not among the free indices" (the syntactic test of the Python code) implies that the
   value does not depend on j *)
Corollary C05_fidx_indep e j s rho k c :
  wfx e -> length c = length (shape e) -> ~ In j (ids (fidx e)) -> DEN s (upd rho j k) e c = DEN s rho e c.
Proof.
  intros W L N. apply C05_den_agree; auto. intros x Hx. unfold upd.
  destruct (Nat.eqb_spec x j) as [->|]; [contradiction|reflexivity].
Qed.

(* the repaired ComponentTensor shortcut, without hygiene hypotheses *)

Lemma fold_rm_merge jj : forall l1 l2, ssorted l2 ->
  fold_rm jj (fi_merge l1 l2) = fi_merge (fold_rm jj l1) (fold_rm jj l2).
Proof.
  induction jj as [|[j d] jj IH]; intros l1 l2 S; [reflexivity|].
  unfold fold_rm in *. simpl. rewrite fi_remove_merge by exact S. apply IH. apply fi_remove_sorted. exact S.
Qed.

Lemma fold_rm_disjoint jj : forall l, (forall x, In x (ids jj) -> ~ In x (ids l)) -> fold_rm jj l = l.
Proof.
  induction jj as [|[j d] jj IH]; intros l H; [reflexivity|].
  unfold fold_rm in *. simpl. rewrite fi_remove_notin by (apply H; simpl; auto).
  apply IH. intros x Hx. apply H. simpl. auto.
Qed.

Lemma ids_nil_nil (l : list (nat * nat)) : (forall x, ~ In x (ids l)) -> l = [].
Proof. destruct l as [|[i d] t]; [reflexivity|]. intros H. exfalso. apply (H i). simpl. auto. Qed.

(* binding the indices of a multiindex removes all the free indices it brought *)
Lemma fold_rm_mi_free jj sh : fold_rm jj (mi_free (map Free (ids jj)) sh) = [].
Proof.
  apply ids_nil_nil. intros x Hx. apply ids_fold_rm in Hx. destruct Hx as [H1 H2]. apply H2.
  apply mi_free_ids, mi_has_in, in_map_iff in H1. destruct H1 as [y [[= ->] Hy]]. exact Hy.
Qed.

Lemma mem_in i l : mem i l = true <-> In i l.
Proof.
  unfold mem. rewrite existsb_exists. split.
  - intros [x [H E]]. apply Nat.eqb_eq in E. subst. exact H.
  - intros H. exists i. split; auto. apply Nat.eqb_refl.
Qed.

Lemma disjointb_spec jj l : disjointb jj l = true -> forall x, In x (ids jj) -> ~ In x (ids l).
Proof.
  unfold disjointb. rewrite forallb_forall. intros H x Hx Hl. apply in_ids in Hx. destruct Hx as [d Hd].
  specialize (H (x, d) Hd). simpl in H. apply negb_true_iff in H.
  apply mem_in in Hl. congruence.
Qed.

(* as_tensor(A[ii], ii) -> A  guarded by  "no bound index is free in A"  (ufl/tensors.py after a0002a9) *)
Theorem C05_component_tensor_repaired_sound A0 jj :
  wfx A0 -> ssorted (fidx A0) -> NoDup (ids jj) -> map snd jj = shape A0 ->
  disjointb jj (fidx A0) = true ->
  let raw := ComponentTensor (Indexed A0 (map Free (ids jj))) jj in
  shape A0 = shape raw /\ fidx A0 = fidx raw /\
  forall s rho c, length c = length jj -> DEN s rho A0 c = DEN s rho raw c.
Proof.
  intros W S N Sh Dj raw. pose proof (disjointb_spec _ _ Dj) as DJ.
  split; [symmetry; exact Sh|]. split.
  - unfold raw. cbn [fidx]. fold (fold_rm jj (fi_merge (fidx A0) (mi_free (map Free (ids jj)) (shape A0)))).
    rewrite fold_rm_merge by apply mi_free_sorted.
    rewrite (fold_rm_disjoint jj (fidx A0)) by exact DJ.
    rewrite fold_rm_mi_free. symmetry. apply fi_merge_nil_r. exact S.
  - (* the valuation that binds jj agrees with rho on the free indices of A0 *)
    intros s rho c L. unfold raw. rewrite (den_ct_ids A env D DX ki A0 jj s rho c N L).
    apply C05_den_agree; [exact W|rewrite <- Sh, map_length; exact L|].
    intros x Hx. symmetry. apply upds_notin. intros Hj. exact (DJ x Hj Hx).
Qed.

(* the executable model of the repaired constructor (flag fx_cn = true), for ALL operands of the shortcut's
   shape: no hygiene hypothesis, only well-formedness of the operands *)
Theorem C05_mk_component_tensor_repaired A0 ii jj e :
  mk_component_tensor true (Indexed A0 ii) jj = Some e ->
  wfx A0 -> ssorted (fidx A0) -> NoDup (ids jj) -> map snd jj = shape A0 ->
  shape e = shape (ComponentTensor (Indexed A0 ii) jj) /\
  fidx e = fidx (ComponentTensor (Indexed A0 ii) jj) /\
  forall s rho c, length c = length jj -> DEN s rho e c = DEN s rho (ComponentTensor (Indexed A0 ii) jj) c.
Proof.
  intros H W S N Sh. unfold mk_component_tensor in H. cbn [negb orb] in H.
  (* when the shortcut is not taken the constructor returns the raw node or fails *)
  assert (G : ct_generic (Indexed A0 ii) jj = Some e ->
              shape e = shape (ComponentTensor (Indexed A0 ii) jj) /\
              fidx e = fidx (ComponentTensor (Indexed A0 ii) jj) /\
              forall s rho c, length c = length jj ->
                DEN s rho e c = DEN s rho (ComponentTensor (Indexed A0 ii) jj) c).
  { unfold ct_generic. destruct (forallb _ jj && _); [|discriminate]. intros [= <-]. repeat split. }
  destruct (mi_eq_dec ii (map Free (ids jj))) as [->|NE]; [|exact (G H)].
  destruct (disjointb jj (fidx A0)) eqn:Dj; [|exact (G H)].
  injection H as <-. apply C05_component_tensor_repaired_sound; auto.
Qed.

(* IndexSum.__new__ moves a factor out of the sum when the summation index is not among its free indices:
   with [C05_fidx_indep] this syntactic test suffices (C05_index_sum_factor assumes the semantic [indep]) *)
Theorem C05_index_sum_factor_unguarded a b j d :
  wfx a -> shape a = [] -> ~ In j (ids (fidx a)) -> ssorted (fidx b) ->
  shape (Product a (IndexSum b j d)) = [] /\
  fidx (Product a (IndexSum b j d)) = fidx (IndexSum (Product a b) j d) /\
  forall s rho, DEN s rho (Product a (IndexSum b j d)) [] = DEN s rho (IndexSum (Product a b) j d) [].
Proof.
  intros W Sa N. apply index_sum_factor; [|exact N].
  intros s rho k. apply C05_fidx_indep; [exact W|rewrite Sa; reflexivity|exact N].
Qed.

End Agree.

Print Assumptions C05_den_agree.
Print Assumptions C05_fidx_indep.
Print Assumptions C05_component_tensor_repaired_sound.
Print Assumptions C05_mk_component_tensor_repaired.
Print Assumptions C05_index_sum_factor_unguarded.
