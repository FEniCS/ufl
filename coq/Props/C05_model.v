(* C05 - Operators build expressions with the mathematically intended value.

   Gallina models [mk_*] of the constructor simplifications of ufl/algebra.py, ufl/indexed.py,
   ufl/indexsum.py, ufl/tensors.py, ufl/conditional.py, and for each of them the theorem

      mk_X args = Some e  ->  (well-formedness of the operands)  ->
        shape e = shape (X args) /\ fidx e = fidx (X args) /\
        forall s rho c, den e c = den (X args) c

   for ALL operands, ALL index valuations and ALL UFL algebras, where [X args] is the raw node of
   coq/Core/Syntax.v, i.e. the requested operation.  Where the Python code is not capture
   avoiding the theorem carries the weakest hypothesis we found under which the shortcut is sound;
   Props/C05_findings.v shows that these hypotheses cannot be dropped (the tree without the repairs,
   i.e. the executable model below with its flags [fx_*] off, violates the unguarded statement).

   Oracles.  [le a b] stands for "cmp_expr a b <= 0" of ufl/sorting.py (operand order of Sum and
   Product; property C29) and [ffold op a b] for the floating-point folding of two literals that are
   not both integers.  The theorems hold for every [le]; folding of non-integer literals is
   excluded by the hypotheses [fp_*] (the folded literal has the exact value), integer folding is
   proved exact.  The laws of conj/re/im/abs/pow/cond used by the folding shortcuts are Section
   hypotheses and appear as premises of exactly the theorems that need them. *)
Require Import UFLV.Core.Facts.
Require Import Lia.

(* decidable equality: expr_equals / MultiIndex.__eq__ *)

Lemma idx_eq_dec (a b : idx) : {a = b} + {a <> b}.
Proof. decide equality; apply Nat.eq_dec. Defined.
Lemma mathfn_eq_dec (a b : mathfn) : {a = b} + {a <> b}. Proof. decide equality. Defined.
Lemma cmpop_eq_dec (a b : cmpop) : {a = b} + {a <> b}. Proof. decide equality. Defined.
Lemma bkind_eq_dec (a b : bkind) : {a = b} + {a <> b}. Proof. decide equality. Defined.
Lemma nn_eq_dec (a b : nat * nat) : {a = b} + {a <> b}.
Proof. decide equality; apply Nat.eq_dec. Defined.
Fixpoint expr_eq_dec (a b : expr) {struct a} : {a = b} + {a <> b}
with cond_eq_dec (a b : cond) {struct a} : {a = b} + {a <> b}.
Proof.
  - decide equality;
    try apply Z.eq_dec; try apply Pos.eq_dec; try apply Nat.eq_dec; try apply Bool.bool_dec;
    try (apply list_eq_dec; apply Nat.eq_dec); try (apply list_eq_dec; apply nn_eq_dec);
    try (apply list_eq_dec; apply idx_eq_dec); try apply mathfn_eq_dec; try apply bkind_eq_dec;
    try (apply list_eq_dec; apply expr_eq_dec).
  - decide equality. apply cmpop_eq_dec.
Defined.
Definition shape_eq_dec := list_eq_dec Nat.eq_dec.
Definition fi_eq_dec := list_eq_dec nn_eq_dec.
Definition mi_eq_dec := list_eq_dec idx_eq_dec.

(* free-index lists: ufl_free_indices/ufl_index_dimensions, merge_unique_indices *)

Definition ids (l : list (nat * nat)) : list nat := map fst l.
Definition lt_all (i : nat) (l : list (nat * nat)) : Prop := forall p, In p l -> i < fst p.
Fixpoint ssorted (l : list (nat * nat)) : Prop :=
  match l with [] => True | p :: t => lt_all (fst p) t /\ ssorted t end.
Definition compat (l1 l2 : list (nat * nat)) : Prop :=
  forall i d e, In (i, d) l1 -> In (i, e) l2 -> d = e.

Lemma in_ids i l : In i (ids l) <-> exists d, In (i, d) l.
Proof.
  unfold ids. rewrite in_map_iff. split.
  - intros [[j d] [E H]]. simpl in E. subst. eauto.
  - intros [d H]. exists (i, d). auto.
Qed.

Lemma lt_all_not_in i l : lt_all i l -> ~ In i (ids l).
Proof. intros H Hi. apply in_ids in Hi. destruct Hi as [d Hd]. apply H in Hd. simpl in Hd. lia. Qed.

Lemma lt_all_cons i j e t : i < j -> lt_all j t -> lt_all i ((j, e) :: t).
Proof. intros L H p [<-|Hp]; [exact L|]. apply H in Hp. lia. Qed.

(* [fi_insert i d] on a list with head key j goes three ways, by the order of i and j *)
Lemma ids_insert x i d l : In x (ids (fi_insert i d l)) <-> i = x \/ In x (ids l).
Proof.
  induction l as [|[j e] t IH]; simpl; [tauto|].
  destruct (Nat.ltb_spec i j); [|destruct (Nat.eqb_spec i j) as [->|]]; simpl; rewrite ?IH; tauto.
Qed.

Lemma fi_insert_in i d l p : ssorted l ->
  (In p (fi_insert i d l) <-> In p l \/ ((i, d) = p /\ ~ In i (ids l))).
Proof.
  induction l as [|[j e] t IH]; simpl; intros S; [tauto|].
  destruct S as [Lt S]. specialize (IH S). simpl in Lt.
  destruct (Nat.ltb_spec i j) as [L|L]; [|destruct (Nat.eqb_spec i j) as [->|E]]; simpl.
  - pose proof (lt_all_not_in i _ (lt_all_cons i j e t L Lt)) as N. simpl in N. tauto.
  - split; [tauto|]. intros [H|[_ H]]; [exact H|]. exfalso. apply H. auto.
  - assert (j <> i) by auto. rewrite IH. tauto.
Qed.

Lemma fi_insert_sorted i d l : ssorted l -> ssorted (fi_insert i d l).
Proof.
  induction l as [|[j e] t IH]; simpl; intros S; [split; [intros p []|exact I]|].
  destruct S as [Lt S]. simpl in Lt.
  destruct (Nat.ltb_spec i j) as [L|L]; [|destruct (Nat.eqb_spec i j) as [->|E]]; simpl; auto.
  - split; [apply lt_all_cons|]; auto.
  - split; [|auto]. intros p H. apply (fi_insert_in i d t p S) in H.
    destruct H as [H|[<- _]]; [apply Lt, H|simpl; lia].
Qed.

(* NB: [fi_merge l1 l2] inserts the entries of l1 one by one into l2 *)
Lemma fi_merge_cons p l1 l2 : fi_merge (p :: l1) l2 = fi_merge l1 (fi_insert (fst p) (snd p) l2).
Proof. reflexivity. Qed.

Lemma fi_merge_sorted l1 : forall l2, ssorted l2 -> ssorted (fi_merge l1 l2).
Proof.
  induction l1 as [|p t IH]; intros l2 S; [exact S|].
  rewrite fi_merge_cons. apply IH. apply fi_insert_sorted. exact S.
Qed.

Lemma fi_merge_in l1 : forall l2 p, ssorted l2 -> NoDup (ids l1) ->
  (In p (fi_merge l1 l2) <-> In p l2 \/ (In p l1 /\ ~ In (fst p) (ids l2))).
Proof.
  induction l1 as [|[j e] t IH]; intros l2 p S N; [unfold fi_merge; simpl; intuition|].
  inversion N as [|x y Nj Nt]. subst.
  rewrite fi_merge_cons, (IH _ p (fi_insert_sorted j e l2 S) Nt), (fi_insert_in j e l2 p S), ids_insert.
  simpl. split.
  - intros [[H|[<- H2]]|[H1 H2]]; auto; right; split; auto.
  - intros [H|[[<-|H] H2]]; auto. right. split; auto. intros [E|E]; auto.
    apply Nj. rewrite E. apply in_ids. exists (snd p). destruct p; exact H.
Qed.

Lemma ssorted_nodup l : ssorted l -> NoDup (ids l).
Proof.
  induction l as [|p t IH]; simpl; intros S; [constructor|].
  destruct S as [Lt S]. constructor; auto. apply lt_all_not_in. exact Lt.
Qed.

(* strictly sorted lists with the same entries are equal *)
Lemma ssorted_ext l : forall l', ssorted l -> ssorted l' -> (forall p, In p l <-> In p l') -> l = l'.
Proof.
  induction l as [|p t IH]; intros [|p' t'] S S' H.
  - reflexivity.
  - exfalso. apply (H p'). simpl. auto.
  - exfalso. apply (H p). simpl. auto.
  - simpl in S, S'. destruct S as [Lt S]. destruct S' as [Lt' S'].
    assert (E : p = p').
    { destruct (proj1 (H p) (or_introl eq_refl)) as [E|Hp]; [auto|].
      destruct (proj2 (H p') (or_introl eq_refl)) as [E|Hp']; [auto|].
      apply Lt' in Hp. apply Lt in Hp'. lia. }
    subst p'. f_equal. apply IH; auto. intros q. split; intros Hq.
    + destruct (proj1 (H q) (or_intror Hq)) as [E|Hq']; auto. subst q. apply Lt in Hq. lia.
    + destruct (proj2 (H q) (or_intror Hq)) as [E|Hq']; auto. subst q. apply Lt' in Hq. lia.
Qed.

Lemma fi_merge_comm l1 l2 : ssorted l1 -> ssorted l2 -> compat l1 l2 ->
  fi_merge l1 l2 = fi_merge l2 l1.
Proof.
  intros S1 S2 C. apply ssorted_ext; try (apply fi_merge_sorted; assumption).
  intros [i d]. rewrite (fi_merge_in l1 l2 _ S2 (ssorted_nodup _ S1)).
  rewrite (fi_merge_in l2 l1 _ S1 (ssorted_nodup _ S2)). simpl. split.
  - intros [H|[H _]]; auto.
    destruct (in_dec Nat.eq_dec i (ids l1)) as [Hi|Hi]; auto.
    apply in_ids in Hi. destruct Hi as [e He]. rewrite <- (C i e d He H). auto.
  - intros [H|[H _]]; auto.
    destruct (in_dec Nat.eq_dec i (ids l2)) as [Hi|Hi]; auto.
    apply in_ids in Hi. destruct Hi as [e He]. rewrite (C i d e H He). auto.
Qed.

Lemma fi_merge_nil_l l : fi_merge [] l = l.
Proof. reflexivity. Qed.

Lemma fi_merge_nil_r l : ssorted l -> fi_merge l [] = l.
Proof. intros S. rewrite fi_merge_comm; auto. exact I. intros i d e _ []. Qed.

(* [fi_remove] commutes with insertion and merge *)
Lemma fi_remove_cons i p l :
  fi_remove i (p :: l) = if Nat.eqb (fst p) i then fi_remove i l else p :: fi_remove i l.
Proof. unfold fi_remove. simpl. destruct (Nat.eqb (fst p) i); reflexivity. Qed.

Lemma fi_remove_notin i l : ~ In i (ids l) -> fi_remove i l = l.
Proof.
  induction l as [|[j e] t IH]; intros H; [reflexivity|]. rewrite fi_remove_cons. simpl in *.
  destruct (Nat.eqb_spec j i) as [->|]; [tauto|]. f_equal. apply IH. tauto.
Qed.

Lemma lt_all_remove i j l : lt_all j l -> lt_all j (fi_remove i l).
Proof. intros H p Hp. apply filter_In in Hp. apply H. tauto. Qed.

Lemma fi_remove_sorted i l : ssorted l -> ssorted (fi_remove i l).
Proof.
  induction l as [|[k x] t IH]; intros S; [exact I|]. destruct S as [Lt S]. rewrite fi_remove_cons.
  destruct (Nat.eqb _ i); [auto|]. split; [apply lt_all_remove, Lt|auto].
Qed.

Lemma fi_remove_insert_same i d l : fi_remove i (fi_insert i d l) = fi_remove i l.
Proof.
  induction l as [|[j e] t IH]; simpl fi_insert; [rewrite fi_remove_cons; simpl; rewrite Nat.eqb_refl; reflexivity|].
  destruct (Nat.ltb i j); [rewrite fi_remove_cons; simpl; rewrite Nat.eqb_refl; reflexivity|].
  destruct (Nat.eqb i j); [reflexivity|]. rewrite !(fi_remove_cons i (j, e)), IH. reflexivity.
Qed.

Lemma fi_insert_head j e l : lt_all j l -> fi_insert j e l = (j, e) :: l.
Proof.
  destruct l as [|[k x] t]; [reflexivity|]. intros H. simpl.
  destruct (Nat.ltb_spec j k) as [|L]; [reflexivity|]. specialize (H (k, x) (or_introl eq_refl)). simpl in H. lia.
Qed.

Lemma fi_remove_insert_other i j e l : ssorted l -> j <> i ->
  fi_remove i (fi_insert j e l) = fi_insert j e (fi_remove i l).
Proof.
  intros S Hji. apply Nat.eqb_neq in Hji.
  induction l as [|[k x] t IH]; [simpl fi_insert; rewrite fi_remove_cons; simpl; rewrite Hji; reflexivity|].
  destruct S as [Lt S]. simpl in Lt. specialize (IH S). simpl fi_insert.
  destruct (Nat.ltb_spec j k) as [L|L]; [|destruct (Nat.eqb_spec j k) as [->|E]].
  - (* inserted at the head, before and after the removal *)
    rewrite (fi_remove_cons i (j, e)). cbn [fst]. rewrite Hji.
    symmetry. apply fi_insert_head, lt_all_remove, lt_all_cons; assumption.
  - rewrite fi_remove_cons. cbn [fst]. rewrite Hji. simpl. rewrite Nat.ltb_irrefl, Nat.eqb_refl. reflexivity.
  - rewrite !(fi_remove_cons i (k, x)), IH. cbn [fst]. destruct (Nat.eqb k i); [reflexivity|]. simpl.
    destruct (Nat.ltb_spec j k); [lia|]. destruct (Nat.eqb_spec j k); [contradiction|reflexivity].
Qed.

Lemma fi_remove_merge i l1 : forall l2, ssorted l2 ->
  fi_remove i (fi_merge l1 l2) = fi_merge (fi_remove i l1) (fi_remove i l2).
Proof.
  induction l1 as [|[j e] t IH]; intros l2 S; [reflexivity|].
  rewrite fi_merge_cons, IH by (apply fi_insert_sorted; exact S). rewrite fi_remove_cons. cbn [fst snd].
  destruct (Nat.eqb_spec j i) as [->|E].
  - rewrite fi_remove_insert_same. reflexivity.
  - rewrite fi_merge_cons, fi_remove_insert_other by assumption. reflexivity.
Qed.

Lemma mi_free_sorted mi : forall sh, ssorted (mi_free mi sh).
Proof.
  induction mi as [|x mi IH]; intros sh; [exact I|].
  destruct x; destruct sh; simpl; auto. apply fi_insert_sorted. apply IH.
Qed.

Section OfZ.
Variable A : ualg.
Add Field AfC05z : (kfield A).
Open Scope K_scope.

Lemma of_pos_succ p : @of_pos A (Pos.succ p) = of_pos p + k1.
Proof. apply Alg.of_pos_succ. Qed.

Lemma of_pos_mul p q : @of_pos A (p * q) = of_pos p * of_pos q.
Proof.
  induction p as [p IH|p IH|]; cbn [Pos.mul of_pos].
  - rewrite of_pos_add. cbn [of_pos]. rewrite IH. ring.
  - rewrite IH. ring.
  - ring.
Qed.

Lemma of_Z_pos_sub p q : @of_Z A (Z.pos_sub p q) = of_pos p - of_pos q.
Proof.
  rewrite Z.pos_sub_spec. destruct (Pos.compare_spec p q) as [E|L|L].
  - subst. cbn. ring.
  - cbn [of_Z]. replace (of_pos q) with (@of_pos A (p + (q - p))).
    + rewrite of_pos_add. ring.
    + f_equal. lia.
  - cbn [of_Z]. replace (of_pos p) with (@of_pos A (q + (p - q))).
    + rewrite of_pos_add. ring.
    + f_equal. lia.
Qed.

Lemma of_Z_add x y : @of_Z A (x + y) = of_Z x + of_Z y.
Proof.
  destruct x, y; cbn [Z.add of_Z]; try ring.
  - apply of_pos_add.
  - rewrite of_Z_pos_sub. ring.
  - rewrite of_Z_pos_sub. ring.
  - rewrite of_pos_add. ring.
Qed.

Lemma of_Z_mul x y : @of_Z A (x * y) = of_Z x * of_Z y.
Proof. destruct x, y; cbn [Z.mul of_Z]; rewrite ?of_pos_mul; ring. Qed.

Lemma of_Z_opp x : @of_Z A (- x) = - of_Z x.
Proof. destruct x; cbn [Z.opp of_Z]; ring. Qed.

Lemma of_Z_pow x n : @of_Z A (x ^ Z.of_nat n) = kpown (of_Z x) n.
Proof.
  induction n as [|n IH].
  - cbn. ring.
  - rewrite Nat2Z.inj_succ, Z.pow_succ_r by lia. rewrite of_Z_mul, IH. reflexivity.
Qed.

End OfZ.

Definition is_zero (e : expr) : bool := match e with Zero _ _ => true | _ => false end.
Definition is_lit (e : expr) : bool :=
  match e with IntV _ | RealV _ _ | CplxV _ _ _ _ | RatV _ _ => true | _ => false end.
Definition int_of (e : expr) : option Z := match e with IntV z => Some z | _ => None end.
Definition is_one (e : expr) : bool :=
  match e with IntV 1 => true | RatV 1 1 => true | _ => false end.
Definition is_abs (e : expr) : bool := match e with Abs _ => true | _ => false end.
Definition is_conj (e : expr) : bool := match e with Conj _ => true | _ => false end.
Definition is_real (e : expr) : bool := match e with Real _ => true | _ => false end.
Definition is_imag (e : expr) : bool := match e with Imag _ => true | _ => false end.
Definition arg1 (e : expr) : expr :=
  match e with Abs a | Conj a | Real a | Imag a => a | _ => e end.
Definition lit_neg (e : expr) : bool :=
  match e with
  | IntV z => Z.ltb z 0 | RealV m _ => Z.ltb m 0 | RatV p _ => Z.ltb p 0 | _ => true
  end.
Definition mk_int (z : Z) : expr := if Z.eqb z 0 then Zero [] [] else IntV z.

Lemma is_zero_inv e : is_zero e = true -> exists sh fi, e = Zero sh fi.
Proof. destruct e; try discriminate. eauto. Qed.
Lemma int_of_inv e z : int_of e = Some z -> e = IntV z.
Proof. destruct e; try discriminate. intros H. inversion H. reflexivity. Qed.
Lemma is_lit_attrs e : is_lit e = true -> shape e = [] /\ fidx e = [].
Proof. destruct e; try discriminate; auto. Qed.
Lemma is_abs_inv e : is_abs e = true -> exists a, e = Abs a.
Proof. destruct e; try discriminate. eauto. Qed.
Lemma is_real_inv e : is_real e = true -> exists a, e = Real a.
Proof. destruct e; try discriminate. eauto. Qed.
Lemma is_imag_inv e : is_imag e = true -> exists a, e = Imag a.
Proof. destruct e; try discriminate. eauto. Qed.
Lemma is_one_inv e : is_one e = true -> e = IntV 1 \/ e = RatV 1 1.
Proof.
  destruct e; try discriminate.
  - destruct z as [|[p|p|]|]; try discriminate. auto.
  - destruct p as [|[p|p|]|]; try discriminate. destruct q; try discriminate. auto.
Qed.

(* the scalar constructors of ufl/algebra.py *)

Section Ctor.
Variable A : ualg.
Add Field AfC05 : (kfield A).
Open Scope K_scope.
Variable env : side -> nat -> nat -> list nat -> A.
Variables D DX : nat -> A -> A.
Variable ki : A.
Notation DEN := (@den A env D DX ki).

Variable le : expr -> expr -> bool.               (* cmp_expr a b <= 0, ufl/sorting.py *)
Variable ffold : nat -> expr -> expr -> expr.     (* floating point folding of literals *)

(* the conclusion of the constructor theorems: [e] has the attributes and the value of the
   requested node [r] *)
Definition same (e r : expr) : Prop :=
  shape e = shape r /\ fidx e = fidx r /\ forall s rho c, DEN s rho e c = DEN s rho r c.

Lemma same_refl e : same e e.
Proof. repeat split. Qed.

Lemma den_is_zero e s rho c : is_zero e = true -> DEN s rho e c = k0.
Proof. destruct e; try discriminate. reflexivity. Qed.

Lemma mk_int_spec z :
  shape (mk_int z) = [] /\ fidx (mk_int z) = [] /\ forall s rho c, DEN s rho (mk_int z) c = of_Z z.
Proof. unfold mk_int. destruct (Z.eqb_spec z 0) as [->|]; repeat split. Qed.

Lemma is_one_den e s rho c : is_one e = true -> DEN s rho e c = k1.
Proof.
  intros H. destruct (is_one_inv e H) as [->| ->]; [reflexivity|].
  cbn. field. apply (F_1_neq_0 (kfield A)).
Qed.
Lemma lit_den_c e s rho c c' : is_lit e = true -> DEN s rho e c = DEN s rho e c'.
Proof. destruct e; try discriminate; auto. Qed.

(* exactness of floating-point folding: a hypothesis, not a theorem (IEEE rounding) *)
Definition fp_exact (op : nat) (f : A -> A -> A) : Prop :=
  forall a b, is_lit a = true -> is_lit b = true ->
    shape (ffold op a b) = [] /\ fidx (ffold op a b) = [] /\
    forall s rho c, DEN s rho (ffold op a b) c = f (DEN s rho a []) (DEN s rho b []).

(* two literals fold to a literal with the value [f a b]: exactly ([g] on Z) when both are integers,
   by [fp_exact] otherwise *)
Lemma lit_fold op f g a b :
  fp_exact op f -> (forall x y, of_Z (g x y) = f (of_Z x) (of_Z y)) ->
  is_lit a = true -> is_lit b = true ->
  let e := match int_of a, int_of b with Some x, Some y => mk_int (g x y) | _, _ => ffold op a b end in
  shape e = [] /\ fidx e = [] /\ forall s rho c, DEN s rho e c = f (DEN s rho a []) (DEN s rho b []).
Proof.
  intros FP Hg La Lb.
  destruct (int_of a) as [x|] eqn:Ia; [destruct (int_of b) as [y|] eqn:Ib|]; try exact (FP a b La Lb).
  apply int_of_inv in Ia, Ib. subst. destruct (mk_int_spec (g x y)) as [S1 [F1 V]].
  repeat split; auto. intros. rewrite V. apply Hg.
Qed.

(* a constructor behind two decidable guards fails exactly when one of them does *)
Lemma guard2_None {T} P Q (dp : {P} + {~ P}) (dq : {Q} + {~ Q}) (x : T) :
  (if dp then if dq then Some x else None else None) = None <-> (~ P \/ ~ Q).
Proof. destruct dp, dq; split; intros H; try discriminate; auto; destruct H; contradiction. Qed.

(* Sum.__new__ *)
Definition mk_sum (a b : expr) : option expr :=
  if shape_eq_dec (shape a) (shape b) then
    if fi_eq_dec (fidx a) (fidx b) then
      Some (if is_zero a then b
            else if is_zero b then a
            else if is_lit a && is_lit b then
                   match int_of a, int_of b with
                   | Some x, Some y => mk_int (x + y)
                   | _, _ => ffold 0 a b
                   end
            else if is_lit a then Sum a b
            else if is_lit b then Sum b a
            else if le a b then Sum a b else Sum b a)
    else None
  else None.

Theorem C05_sum_sound a b e :
  fp_exact 0 kadd ->
  mk_sum a b = Some e ->
  shape e = shape (Sum a b) /\ fidx e = fidx (Sum a b) /\
  forall s rho c, DEN s rho e c = DEN s rho (Sum a b) c.
Proof.
  intros FP. unfold mk_sum.
  destruct (shape_eq_dec (shape a) (shape b)) as [Es|]; [|discriminate].
  destruct (fi_eq_dec (fidx a) (fidx b)) as [Ef|]; [|discriminate].
  intros [= <-]. cbn [shape fidx den].
  destruct (is_zero a) eqn:Za.
  { repeat split; auto. intros. rewrite (den_is_zero a) by exact Za. ring. }
  destruct (is_zero b) eqn:Zb.
  { repeat split; auto. intros. rewrite (den_is_zero b) by exact Zb. ring. }
  (* what is left returns [Sum a b] or [Sum b a], except on two literals *)
  assert (Hab : same (Sum a b) (Sum a b)) by apply same_refl.
  assert (Hba : same (Sum b a) (Sum a b)).
  { repeat split; auto. intros. cbn [den]. ring. }
  destruct (is_lit a) eqn:La; [destruct (is_lit b) eqn:Lb|]; cbn [andb].
  - destruct (lit_fold 0 kadd Z.add a b FP (of_Z_add A) La Lb) as [S1 [F1 V]].
    destruct (is_lit_attrs a La) as [-> ->]. repeat split; auto.
    intros. rewrite V. f_equal; apply lit_den_c; assumption.
  - exact Hab.
  - destruct (is_lit b); [exact Hba|]. destruct (le a b); assumption.
Qed.

Lemma mk_sum_value a b e :
  fp_exact 0 kadd -> mk_sum a b = Some e ->
  forall s rho c, DEN s rho e c = DEN s rho a c + DEN s rho b c.
Proof. intros FP H. apply (C05_sum_sound a b e FP H). Qed.

(* errors only on ill-formed requests *)
Theorem C05_sum_error a b :
  mk_sum a b = None <-> (shape a <> shape b \/ fidx a <> fidx b).
Proof. apply guard2_None. Qed.

(* Product.__new__ *)
Definition mk_product (a b : expr) : option expr :=
  if shape_eq_dec (shape a) [] then
    if shape_eq_dec (shape b) [] then
      Some (if is_zero a || is_zero b then Zero [] (fi_merge (fidx a) (fidx b))
            else if is_lit a && is_lit b then
                   match int_of a, int_of b with
                   | Some x, Some y => mk_int (x * y)
                   | _, _ => ffold 1 a b
                   end
            else if is_lit a then (if is_one a then b else Product a b)
            else if is_lit b then (if is_one b then a else Product b a)
            else if le a b then Product a b else Product b a)
    else None
  else None.

Lemma compat_sym l1 l2 : compat l1 l2 -> compat l2 l1.
Proof. intros C i d e H1 H2. symmetry. eapply C; eauto. Qed.

(* The value needs nothing of the free-index lists; their merge commutes only when they are sorted
   and agree on the dimensions. *)
Lemma mk_product_spec a b e :
  fp_exact 1 kmul -> mk_product a b = Some e ->
  shape e = [] /\
  (ssorted (fidx a) -> ssorted (fidx b) -> compat (fidx a) (fidx b) ->
   fidx e = fi_merge (fidx a) (fidx b)) /\
  forall s rho, DEN s rho e [] = DEN s rho a [] * DEN s rho b [].
Proof.
  intros FP. unfold mk_product.
  destruct (shape_eq_dec (shape a) []) as [Ea|]; [|discriminate].
  destruct (shape_eq_dec (shape b) []) as [Eb|]; [|discriminate].
  intros [= <-].
  destruct (is_zero a || is_zero b) eqn:Z.
  { repeat split. intros. cbn [den].
    apply orb_prop in Z. destruct Z as [Z|Z]; rewrite (den_is_zero _ _ _ _ Z); ring. }
  destruct (is_lit a) eqn:La; [destruct (is_lit b) eqn:Lb|]; cbn [andb].
  - destruct (lit_fold 1 kmul Z.mul a b FP (of_Z_mul A) La Lb) as [S1 [F1 V]].
    destruct (is_lit_attrs a La) as [_ ->]. destruct (is_lit_attrs b Lb) as [_ ->].
    repeat split; auto.
  - destruct (is_lit_attrs a La) as [_ Fa]. rewrite Fa, fi_merge_nil_l.
    destruct (is_one a) eqn:Oa; cbn [shape fidx den]; rewrite ?Fa, ?fi_merge_nil_l; repeat split; auto.
    intros. rewrite (is_one_den a s rho [] Oa). ring.
  - destruct (is_lit b) eqn:Lb.
    + destruct (is_lit_attrs b Lb) as [_ Fb]. rewrite Fb.
      destruct (is_one b) eqn:Ob; cbn [shape fidx den]; rewrite ?Fb, ?fi_merge_nil_l.
      * repeat split; auto. { intros Sa _ _. symmetry. apply fi_merge_nil_r, Sa. }
        intros. rewrite (is_one_den b s rho [] Ob). ring.
      * repeat split. { intros Sa _ _. symmetry. apply fi_merge_nil_r, Sa. } intros. ring.
    + destruct (le a b); cbn [shape fidx den]; repeat split.
      * intros Sa Sb C. apply fi_merge_comm; auto using compat_sym.
      * intros. ring.
Qed.

Lemma mk_product_value a b e :
  fp_exact 1 kmul -> mk_product a b = Some e ->
  forall s rho, DEN s rho e [] = DEN s rho a [] * DEN s rho b [].
Proof. intros FP H. apply (mk_product_spec a b e FP H). Qed.

(* scalar-valued nodes are compared at the (only) component [] *)
Theorem C05_product_sound a b e :
  fp_exact 1 kmul ->
  ssorted (fidx a) -> ssorted (fidx b) -> compat (fidx a) (fidx b) ->
  mk_product a b = Some e ->
  shape e = shape (Product a b) /\ fidx e = fidx (Product a b) /\
  forall s rho, DEN s rho e [] = DEN s rho (Product a b) [].
Proof.
  intros FP Sa Sb Cab H. destruct (mk_product_spec a b e FP H) as [Hs [Hf Hv]].
  split; [exact Hs|]. split; [exact (Hf Sa Sb Cab)|exact Hv].
Qed.

Theorem C05_product_error a b :
  mk_product a b = None <-> (shape a <> [] \/ shape b <> []).
Proof. apply guard2_None. Qed.

(* Division.__new__ *)
Definition wf_division (a b : expr) : bool :=
  (if shape_eq_dec (shape a) [] then true else false) &&
  (if shape_eq_dec (shape b) [] then true else false) &&
  (if fi_eq_dec (fidx b) [] then true else false) && negb (is_zero b).

Definition mk_division (a b : expr) : option expr :=
  if wf_division a b then
    Some (if is_zero a || is_one b then a
          else if is_lit a && is_lit b then ffold 2 a b      (* always a float division *)
          else Division a b)
  else None.

Theorem C05_division_sound a b e :
  fp_exact 2 kdiv -> ssorted (fidx a) ->
  mk_division a b = Some e ->
  shape e = shape (Division a b) /\ fidx e = fidx (Division a b) /\
  forall s rho, DEN s rho e [] = DEN s rho (Division a b) [].
Proof.
  intros FP Sa. unfold mk_division, wf_division.
  destruct (shape_eq_dec (shape a) []) as [Ea|]; [|discriminate].
  destruct (shape_eq_dec (shape b) []) as [Eb|]; [|discriminate].
  destruct (fi_eq_dec (fidx b) []) as [Fb|]; [|discriminate].
  destruct (is_zero b); [discriminate|]. intros [= <-].
  cbn [shape fidx den]. rewrite Fb, (fi_merge_nil_r _ Sa).
  destruct (is_zero a) eqn:Za; cbn [orb].
  { repeat split; auto. intros. rewrite (den_is_zero a) by exact Za. symmetry. apply div_zero_l. }
  destruct (is_one b) eqn:Ob.
  { repeat split; auto. intros. rewrite (is_one_den b s rho [] Ob). field. apply (F_1_neq_0 (kfield A)). }
  destruct (is_lit a && is_lit b) eqn:L.
  - apply andb_prop in L. destruct L as [La Lb]. destruct (FP a b La Lb) as [S1 [F1 V]].
    destruct (is_lit_attrs a La) as [_ ->]. repeat split; auto.
  - cbn [shape fidx]. rewrite Fb, (fi_merge_nil_r _ Sa). repeat split.
Qed.

(* Power.__new__ *)
Definition true_scalar (a : expr) : bool :=
  (if shape_eq_dec (shape a) [] then true else false) && (if fi_eq_dec (fidx a) [] then true else false).

Definition mk_power (a b : expr) : option expr :=
  if true_scalar a && true_scalar b then
    if is_lit a && is_lit b then
      match int_of a, int_of b with
      | Some x, Some y => if Z.leb 0 y then Some (mk_int (x ^ y)) else Some (ffold 3 a b)
      | _, _ => Some (ffold 3 a b)
      end
    else if is_zero b then Some (IntV 1)
    else if is_zero a && is_lit b then (if lit_neg b then None else Some (Zero [] []))
    else if is_one b then Some a
    else Some (Power a b)
  else None.

(* laws of the abstract power function needed by the shortcuts *)
Definition pow_laws : Prop :=
  (forall x : A, kpow x k0 = k1) /\ (forall x : A, kpow x k1 = x) /\
  (forall b s rho, is_lit b = true -> lit_neg b = false -> int_of b = None ->
     kpow k0 (DEN s rho b []) = k0).
Definition fp_pow_exact : Prop :=
  forall a b, is_lit a = true -> is_lit b = true ->
    (forall x y, int_of a = Some x -> int_of b = Some y -> (y < 0)%Z) ->
    shape (ffold 3 a b) = [] /\ fidx (ffold 3 a b) = [] /\
    forall s rho, DEN s rho (ffold 3 a b) [] = DEN s rho (Power a b) [].

Lemma true_scalar_inv a : true_scalar a = true -> shape a = [] /\ fidx a = [].
Proof.
  unfold true_scalar. destruct (shape_eq_dec (shape a) []); destruct (fi_eq_dec (fidx a) []);
  try discriminate; auto.
Qed.

(* x ^ (literal one): [IntV 1] is a natural power, [RatV 1 1] goes through [kpow] *)
Lemma den_power_one a b s rho :
  (forall x : A, kpow x k1 = x) -> is_one b = true -> DEN s rho (Power a b) [] = DEN s rho a [].
Proof.
  intros P1 Ob. pose proof (is_one_den b s rho [] Ob) as Vb.
  destruct (is_one_inv b Ob) as [->| ->].
  - change (DEN s rho (Power a (IntV 1)) []) with (DEN s rho a [] * k1). ring.
  - cbn [den] in *. rewrite Vb. apply P1.
Qed.

(* [b <> IntV 0]: IntValue(0) does not exist in UFL (IntValue.__new__ returns Zero()) *)
Theorem C05_power_sound a b e :
  fp_pow_exact -> pow_laws -> b <> IntV 0 ->
  mk_power a b = Some e ->
  shape e = shape (Power a b) /\ fidx e = fidx (Power a b) /\
  forall s rho, DEN s rho e [] = DEN s rho (Power a b) [].
Proof.
  intros FP [P0 [P1 PZ]] NZ. unfold mk_power.
  destruct (true_scalar a) eqn:Ta; [|discriminate]. destruct (true_scalar b) eqn:Tb; [|discriminate].
  destruct (true_scalar_inv a Ta) as [Sa Fa]. destruct (true_scalar_inv b Tb) as [Sb Fb].
  cbn [andb shape fidx]. rewrite Fa, Fb. change (fi_merge [] []) with (@nil (nat * nat)).
  (* the branches of Power.__new__ in their order *)
  destruct (is_lit a && is_lit b) eqn:L.
  { apply andb_prop in L. destruct L as [La Lb].
    (* every case but (integer) ^ (non-negative integer) is folded in floating point *)
    assert (Hf : (forall x y, int_of a = Some x -> int_of b = Some y -> (y < 0)%Z) ->
                 Some (ffold 3 a b) = Some e ->
                 shape e = [] /\ fidx e = [] /\ forall s rho, DEN s rho e [] = DEN s rho (Power a b) []).
    { intros Hn [= <-]. apply FP; assumption. }
    destruct (int_of a) as [x|] eqn:Ia; [destruct (int_of b) as [y|] eqn:Ib|];
      try (apply Hf; congruence).
    destruct (Z.leb_spec 0 y) as [Ly|Ly].
    2:{ apply Hf. intros x' y' E1 E2. replace y' with y by congruence. exact Ly. }
    intros [= <-]. apply int_of_inv in Ia, Ib. subst.
    destruct (mk_int_spec (x ^ y)) as [S1 [F1 V]]. repeat split; auto. intros. rewrite V.
    destruct y as [|p|p]; [reflexivity| |lia]. cbn [den]. rewrite <- of_Z_pow, positive_nat_Z. reflexivity. }
  destruct (is_zero b) eqn:Zb.
  { intros [= <-]. destruct (is_zero_inv b Zb) as [sh [fi ->]]. repeat split.
    intros. cbn [den]. rewrite P0. reflexivity. }
  destruct (is_zero a && is_lit b) eqn:ZL.
  { apply andb_prop in ZL. destruct ZL as [Za Lb]. destruct (lit_neg b) eqn:Nb; [discriminate|].
    intros [= <-]. repeat split. intros. rewrite den_Power, (den_is_zero a) by exact Za. cbn [den].
    change (lit_int b) with (int_of b). destruct (int_of b) as [y|] eqn:Ib.
    - apply int_of_inv in Ib. subst. cbn in Nb. apply Z.ltb_ge in Nb.
      destruct y as [|p|p]; [congruence| |lia]. cbn [pow_z].
      destruct (Pos2Nat.is_succ p) as [n ->]. cbn [kpown]. ring.
    - cbn [pow_z]. symmetry. exact (PZ b s rho Lb Nb Ib). }
  destruct (is_one b) eqn:Ob; intros [= <-].
  - repeat split; auto. intros. symmetry. apply den_power_one; assumption.
  - repeat split. cbn [fidx]. rewrite Fa, Fb. reflexivity.
Qed.

(* Abs / Conj / Real / Imag *)
(* Abs(Conj x): Abs.__new__ returns Abs(x), but Python then re-runs __init__ of the returned Abs
   object with the ORIGINAL argument, so the node that comes out is Abs(Conj x) (observed and
   reproduced by the correspondence check). *)
Definition mk_abs (a : expr) : expr :=
  if is_zero a || is_abs a then a
  else match a with
       | IntV z => mk_int (Z.abs z)
       | RealV _ _ | CplxV _ _ _ _ | RatV _ _ => ffold 4 a a
       | _ => Abs a
       end.
(* with the repair of Abs.__init__ (no second initialisation) Abs(Conj x) really becomes Abs(x) *)
Fixpoint mk_abs_fixed (a : expr) : expr :=
  match a with
  | Zero _ _ => a
  | Abs _ => a
  | Conj x => mk_abs_fixed x
  | IntV z => mk_int (Z.abs z)
  | RealV _ _ | CplxV _ _ _ _ | RatV _ _ => ffold 4 a a
  | _ => Abs a
  end.
Definition mk_abs_sel (fx_abs : bool) (a : expr) : expr := if fx_abs then mk_abs_fixed a else mk_abs a.

Definition mk_conj (a : expr) : expr :=
  if is_abs a || is_real a || is_imag a || is_zero a then a
  else if is_conj a then arg1 a
  else match a with
       | IntV z => IntV z
       | RealV _ _ | CplxV _ _ _ _ | RatV _ _ => ffold 5 a a
       | _ => Conj a
       end.
Definition mk_real (a : expr) : expr :=
  let a' := if is_conj a then arg1 a else a in
  if is_zero a' then a'
  else match a' with
       | IntV z => IntV z
       | RealV _ _ | CplxV _ _ _ _ | RatV _ _ => ffold 6 a' a'
       | _ => Real a
       end.
Definition mk_imag (a : expr) : expr :=
  if is_zero a then a
  else if is_real a || is_imag a || is_abs a then Zero (shape a) (fidx a)
  else match a with
       | IntV z => Zero [] []
       | RealV _ _ | CplxV _ _ _ _ | RatV _ _ => ffold 7 a a
       | _ => Imag a
       end.

Definition cplx_laws : Prop :=
  (forall x : A, kconj (kconj x) = x) /\ (forall x : A, kconj (kabs x) = kabs x) /\
  (forall x : A, kconj (kre x) = kre x) /\ (forall x : A, kconj (kim x) = kim x) /\
  (forall x : A, kabs (kabs x) = kabs x) /\
  (forall x : A, kim (kre x) = k0) /\ (forall x : A, kim (kim x) = k0) /\ (forall x : A, kim (kabs x) = k0) /\
  (kabs k0 = (k0 : A)) /\ (kconj k0 = (k0 : A)) /\ (kre k0 = (k0 : A)) /\ (kim k0 = (k0 : A)) /\
  (forall z, kabs (of_Z z) = (of_Z (Z.abs z) : A)) /\ (forall z, kconj (of_Z z) = (of_Z z : A)) /\
  (forall z, kre (of_Z z) = (of_Z z : A)) /\ (forall z, kim (of_Z z) = (k0 : A)).
Definition fp_unary (op : nat) (f : A -> A) : Prop :=
  forall a, is_lit a = true ->
    shape (ffold op a a) = [] /\ fidx (ffold op a a) = [] /\
    forall s rho c, DEN s rho (ffold op a a) c = f (DEN s rho a c).

(* The proofs go over the constructors of the operand: all but a few are wrapped unchanged
   ([same_refl]), a real or complex literal is folded ([fp_unary] is the claim), and each remaining
   case is one law of [cplx_laws]. *)
Theorem C05_abs_sound a :
  cplx_laws -> fp_unary 4 kabs ->
  shape (mk_abs a) = shape (Abs a) /\ fidx (mk_abs a) = fidx (Abs a) /\
  forall s rho c, DEN s rho (mk_abs a) c = DEN s rho (Abs a) c.
Proof.
  intros (CC & CA & CR & CI & AA & IR & II & IA & A0 & C0 & R0 & I0 & AZ & CZ & RZ & IZ) FP.
  change (same (mk_abs a) (Abs a)). unfold mk_abs.
  destruct a; cbn [is_zero is_abs orb]; try apply same_refl; try (apply FP; reflexivity).
  - repeat split. intros. cbn [den]. symmetry. exact A0.
  - destruct (mk_int_spec (Z.abs z)) as [S1 [F1 V]]. repeat split; auto.
    intros. rewrite V. symmetry. apply AZ.
  - repeat split. intros. cbn [den]. symmetry. apply AA.
Qed.

Theorem C05_abs_fixed_sound a :
  cplx_laws -> (forall x : A, kabs (kconj x) = kabs x) -> fp_unary 4 kabs ->
  shape (mk_abs_fixed a) = shape (Abs a) /\ fidx (mk_abs_fixed a) = fidx (Abs a) /\
  forall s rho c, DEN s rho (mk_abs_fixed a) c = DEN s rho (Abs a) c.
Proof.
  (* [mk_abs_fixed] differs from [mk_abs] on [Conj] only *)
  intros L AC FP.
  induction a; try (match goal with |- context [Abs ?x] => exact (C05_abs_sound x L FP) end).
  cbn [mk_abs_fixed]. destruct IHa as [S1 [F1 V]]. repeat split; auto.
  intros. rewrite V. cbn [den]. symmetry. apply AC.
Qed.

Theorem C05_conj_sound a :
  cplx_laws -> fp_unary 5 kconj ->
  shape (mk_conj a) = shape (Conj a) /\ fidx (mk_conj a) = fidx (Conj a) /\
  forall s rho c, DEN s rho (mk_conj a) c = DEN s rho (Conj a) c.
Proof.
  intros (CC & CA & CR & CI & AA & IR & II & IA & A0 & C0 & R0 & I0 & AZ & CZ & RZ & IZ) FP.
  change (same (mk_conj a) (Conj a)). unfold mk_conj.
  destruct a; cbn [is_zero is_abs is_conj is_real is_imag orb arg1]; try apply same_refl;
    try (apply FP; reflexivity); repeat split; intros; cbn [den]; symmetry.
  - exact C0.
  - apply CZ.
  - apply CA.
  - apply CC.
  - apply CR.
  - apply CI.
Qed.

(* Real(Conj(literal)) does not occur: Conj folds literals *)
Theorem C05_real_sound a :
  cplx_laws -> fp_unary 6 kre ->
  (forall x, a = Conj x -> is_lit x = false) ->
  shape (mk_real a) = shape (Real a) /\ fidx (mk_real a) = fidx (Real a) /\
  forall s rho c, DEN s rho (mk_real a) c = DEN s rho (Real a) c.
Proof.
  intros (CC & CA & CR & CI & AA & IR & II & IA & A0 & C0 & R0 & I0 & AZ & CZ & RZ & IZ) FP NL.
  change (same (mk_real a) (Real a)). unfold mk_real.
  destruct a; cbn [is_conj arg1 is_zero]; try apply same_refl; try (apply FP; reflexivity).
  - repeat split. intros. cbn [den]. symmetry. exact R0.
  - repeat split. intros. cbn [den]. symmetry. apply RZ.
  - specialize (NL a eq_refl).
    destruct a; try discriminate NL; cbn [is_zero]; try apply same_refl.
    repeat split. intros. cbn [den]. rewrite C0. symmetry. exact R0.
Qed.

Theorem C05_imag_sound a :
  cplx_laws -> fp_unary 7 kim ->
  shape (mk_imag a) = shape (Imag a) /\ fidx (mk_imag a) = fidx (Imag a) /\
  forall s rho c, DEN s rho (mk_imag a) c = DEN s rho (Imag a) c.
Proof.
  intros (CC & CA & CR & CI & AA & IR & II & IA & A0 & C0 & R0 & I0 & AZ & CZ & RZ & IZ) FP.
  change (same (mk_imag a) (Imag a)). unfold mk_imag.
  destruct a; cbn [is_zero is_abs is_real is_imag orb]; try apply same_refl;
    try (apply FP; reflexivity); repeat split; intros; cbn [den]; symmetry.
  - exact I0.
  - apply IZ.
  - apply IA.
  - apply IR.
  - apply II.
Qed.

End Ctor.

(* indexing constructors: ufl/indexed.py, ufl/indexsum.py, ufl/tensors.py *)

Definition mi_has (i : nat) (mi : list idx) : bool :=
  existsb (fun x => match x with Free j => Nat.eqb j i | Fixed _ => false end) mi.
Definition mem (i : nat) (l : list nat) : bool := existsb (Nat.eqb i) l.
(* none of the indices bound by jj is among the free indices l *)
Definition disjointb (jj : list (nat * nat)) (l : list (nat * nat)) : bool :=
  forallb (fun p => negb (mem (fst p) (ids l))) jj.

(* rep = dict(zip(jj, multiindex)); later entries win, like Python's dict and like [upds] *)
Fixpoint lookup (k : nat) (jj : list (nat * nat)) (mi : list idx) (d : option idx) : option idx :=
  match jj, mi with
  | (j, _) :: jj', m :: mi' => lookup k jj' mi' (if Nat.eqb k j then Some m else d)
  | _, _ => d
  end.
Definition subst_idx (jj : list (nat * nat)) (mi : list idx) (x : idx) : idx :=
  match x with
  | Fixed n => Fixed n
  | Free k => match lookup k jj mi None with Some m => m | None => Free k end
  end.

Lemma mi_free_ids i mi : forall sh, In i (ids (mi_free mi sh)) -> mi_has i mi = true.
Proof.
  induction mi as [|x mi IH]; intros sh H; [destruct H|].
  destruct x as [n|j]; destruct sh as [|d sh]; simpl in H; try (destruct H; fail).
  - simpl. apply (IH sh H).
  - apply ids_insert in H. simpl. destruct H as [H|H].
    + subst. rewrite Nat.eqb_refl. reflexivity.
    + rewrite (IH sh H). apply orb_true_r.
Qed.

Section Index.
Variable A : ualg.
Open Scope K_scope.
Variable env : side -> nat -> nat -> list nat -> A.
Variables D DX : nat -> A -> A.
Variable ki : A.
Notation DEN := (@den A env D DX ki).

(* semantic hygiene: the value of e does not depend on the valuation of index i.  The Python code
   checks the syntactic condition "i not in e.ufl_free_indices" (or nothing at all) *)
Definition indep (e : expr) (i : nat) : Prop :=
  forall s rho k c, DEN s (upd rho i k) e c = DEN s rho e c.

Lemma den_ListTensor_nth s rho es k c : k < length es ->
  DEN s rho (ListTensor es) (k :: c) = DEN s rho (nth k es (Zero [] [])) c.
Proof. intros H. rewrite den_ListTensor, (nth_error_nth' es (Zero [] []) H). reflexivity. Qed.

Lemma idxval_upd rho i k mi : mi_has i mi = false ->
  map (idxval (upd rho i k)) mi = map (idxval rho) mi.
Proof.
  induction mi as [|x mi IH]; simpl; intros H; [reflexivity|].
  apply orb_false_iff in H. destruct H as [H1 H2]. rewrite (IH H2). f_equal.
  destruct x as [n|j]; [reflexivity|]. simpl. rewrite H1. reflexivity.
Qed.

(* Indexed.__new__ on Zero *)
Theorem C05_indexed_zero sh fi mi :
  let e := Zero [] (fi_merge fi (mi_free mi sh)) in
  shape e = shape (Indexed (Zero sh fi) mi) /\ fidx e = fidx (Indexed (Zero sh fi) mi) /\
  forall s rho, DEN s rho e [] = DEN s rho (Indexed (Zero sh fi) mi) [].
Proof. repeat split. Qed.

(* Sum._simplify_indexed *)
Theorem C05_indexed_sum a b mi :
  shape (Sum (Indexed a mi) (Indexed b mi)) = shape (Indexed (Sum a b) mi) /\
  fidx (Sum (Indexed a mi) (Indexed b mi)) = fidx (Indexed (Sum a b) mi) /\
  forall s rho, DEN s rho (Sum (Indexed a mi) (Indexed b mi)) [] = DEN s rho (Indexed (Sum a b) mi) [].
Proof. repeat split. Qed.

(* ListTensor._simplify_indexed: fixed first index *)
Definition uniform (es : list expr) : Prop :=
  forall e, In e es -> shape e = shape (hd (Zero [] []) es) /\ fidx e = fidx (hd (Zero [] []) es).

Theorem C05_indexed_list_tensor es k mi :
  k < length es -> uniform es ->
  let sub := nth k es (Zero [] []) in
  shape (Indexed sub mi) = shape (Indexed (ListTensor es) (Fixed k :: mi)) /\
  fidx (Indexed sub mi) = fidx (Indexed (ListTensor es) (Fixed k :: mi)) /\
  forall s rho, DEN s rho (Indexed sub mi) [] = DEN s rho (Indexed (ListTensor es) (Fixed k :: mi)) [].
Proof.
  intros Hk U sub. destruct (U sub (nth_In es _ Hk)) as [Us Uf].
  split; [reflexivity|]. split.
  - cbn [fidx shape mi_free]. rewrite Us, Uf. destruct es; [simpl in Hk; lia|]. reflexivity.
  - intros. rewrite !den_Indexed. symmetry. apply den_ListTensor_nth, Hk.
Qed.

(* IndexSum._simplify_indexed: sound iff the summation index does not occur in mi *)
Lemma den_indexed_index_sum a i d mi s rho : mi_has i mi = false ->
  DEN s rho (IndexSum (Indexed a mi) i d) [] = DEN s rho (Indexed (IndexSum a i d) mi) [].
Proof. intros H. cbn [den]. apply ksum_ext. intros k _. rewrite idxval_upd by exact H. reflexivity. Qed.

Theorem C05_indexed_index_sum_partial a i d mi :
  mi_has i mi = false -> ssorted (fidx a) ->
  shape (IndexSum (Indexed a mi) i d) = shape (Indexed (IndexSum a i d) mi) /\
  fidx (IndexSum (Indexed a mi) i d) = fidx (Indexed (IndexSum a i d) mi) /\
  forall s rho, DEN s rho (IndexSum (Indexed a mi) i d) [] = DEN s rho (Indexed (IndexSum a i d) mi) [].
Proof.
  intros H S. split; [reflexivity|]. split.
  - cbn [fidx shape]. rewrite fi_remove_merge by apply mi_free_sorted.
    rewrite (fi_remove_notin i (mi_free mi (shape a))); [reflexivity|].
    intros Hi. apply mi_free_ids in Hi. congruence.
  - intros. apply den_indexed_index_sum, H.
Qed.

(* IndexSum.__new__ *)
Theorem C05_index_sum_zero sh fi i d :
  let e := Zero sh (fi_remove i fi) in
  shape e = shape (IndexSum (Zero sh fi) i d) /\ fidx e = fidx (IndexSum (Zero sh fi) i d) /\
  forall s rho c, DEN s rho e c = DEN s rho (IndexSum (Zero sh fi) i d) c.
Proof. repeat split. intros. cbn [den]. rewrite ksum_zero. reflexivity. Qed.

(* A factor whose value does not change with the summation index moves out of the sum.  The code
   checks [j not in a.ufl_free_indices]; that this implies the premise is [C05_fidx_indep]
   (Props/C05_wf.v). *)
Lemma den_index_sum_factor a b j d s rho :
  (forall k, DEN s (upd rho j k) a [] = DEN s rho a []) ->
  DEN s rho (Product a (IndexSum b j d)) [] = DEN s rho (IndexSum (Product a b) j d) [].
Proof. intros I. cbn [den]. rewrite <- ksum_scal. apply ksum_ext. intros k _. rewrite I. reflexivity. Qed.

Lemma index_sum_factor a b j d :
  (forall s rho k, DEN s (upd rho j k) a [] = DEN s rho a []) ->
  ~ In j (ids (fidx a)) -> ssorted (fidx b) ->
  shape (Product a (IndexSum b j d)) = [] /\
  fidx (Product a (IndexSum b j d)) = fidx (IndexSum (Product a b) j d) /\
  forall s rho, DEN s rho (Product a (IndexSum b j d)) [] = DEN s rho (IndexSum (Product a b) j d) [].
Proof.
  intros I N S. split; [reflexivity|]. split.
  - cbn [fidx]. rewrite fi_remove_merge by exact S. rewrite (fi_remove_notin j (fidx a) N). reflexivity.
  - intros. apply den_index_sum_factor. intros k. apply I.
Qed.

Theorem C05_index_sum_factor a b j d :
  indep a j -> ~ In j (ids (fidx a)) -> ssorted (fidx b) ->
  shape (Product a (IndexSum b j d)) = [] /\
  fidx (Product a (IndexSum b j d)) = fidx (IndexSum (Product a b) j d) /\
  forall s rho, DEN s rho (Product a (IndexSum b j d)) [] = DEN s rho (IndexSum (Product a b) j d) [].
Proof. intros I. apply index_sum_factor. intros s rho k. apply I. Qed.

(* ComponentTensor._simplify_indexed: as_tensor(C[kk], jj)[ii] -> C[kk with jj := ii] *)
Lemma upds_indep C jj : forall rho vals s c, (forall j, In j (ids jj) -> indep C j) ->
  DEN s (upds rho jj vals) C c = DEN s rho C c.
Proof.
  induction jj as [|[j d] jj IH]; intros rho vals s c H; [reflexivity|].
  destruct vals as [|v vals]; [reflexivity|]. simpl upds. rewrite IH.
  - apply H. simpl. auto.
  - intros j' Hj'. apply H. simpl. auto.
Qed.

Lemma upds_lookup k rho0 jj : forall mi rho d,
  rho k = match d with Some m => idxval rho0 m | None => rho0 k end ->
  upds rho jj (map (idxval rho0) mi) k =
  match lookup k jj mi d with Some m => idxval rho0 m | None => rho0 k end.
Proof.
  induction jj as [|[j dj] jj IH]; intros mi rho d H; [destruct mi; exact H|].
  destruct mi as [|m mi]; [exact H|]. simpl map. simpl upds. simpl lookup. apply IH.
  unfold upd. rewrite (Nat.eqb_sym k j). destruct (Nat.eqb j k); [reflexivity|exact H].
Qed.

Theorem C05_indexed_ct_partial C kk jj mi :
  (forall j, In j (ids jj) -> indep C j) ->
  shape (Indexed C (map (subst_idx jj mi) kk)) = shape (Indexed (ComponentTensor (Indexed C kk) jj) mi) /\
  forall s rho, DEN s rho (Indexed C (map (subst_idx jj mi) kk)) [] =
                DEN s rho (Indexed (ComponentTensor (Indexed C kk) jj) mi) [].
Proof.
  intros H. split; [reflexivity|]. intros. cbn [den]. rewrite upds_indep by exact H.
  f_equal. rewrite map_map. apply map_ext. intros [n|k]; [reflexivity|].
  simpl. rewrite (upds_lookup k rho jj mi rho None eq_refl).
  destruct (lookup k jj mi None); reflexivity.
Qed.

(* ... with B = ListTensor[k] and rep[k] a fixed index n: B may be replaced by the n-th entry *)
Theorem C05_indexed_ct_list_tensor es k jj mi n :
  lookup k jj mi None = Some (Fixed n) -> n < length es ->
  forall s rho, DEN s rho (Indexed (ComponentTensor (Indexed (ListTensor es) [Free k]) jj) mi) [] =
                DEN s rho (Indexed (ComponentTensor (nth n es (Zero [] [])) jj) mi) [].
Proof.
  intros L Hn s rho. rewrite !den_Indexed, !den_ComponentTensor, den_Indexed. cbn [map idxval].
  rewrite (upds_lookup k rho jj mi rho None eq_refl), L. apply den_ListTensor_nth, Hn.
Qed.

(* ComponentTensor.__new__ *)
Theorem C05_component_tensor_zero fi (jj : list (nat * nat)) :
  let e := Zero (map snd jj) (fold_left (fun acc p => fi_remove (fst p) acc) jj fi) in
  shape e = shape (ComponentTensor (Zero [] fi) jj) /\ fidx e = fidx (ComponentTensor (Zero [] fi) jj) /\
  forall s rho c, DEN s rho e c = DEN s rho (ComponentTensor (Zero [] fi) jj) c.
Proof. repeat split. Qed.

Lemma upds_notin k jj : forall rho c, ~ In k (ids jj) -> upds rho jj c k = rho k.
Proof.
  induction jj as [|[j d] jj IH]; intros rho c H; [reflexivity|]. destruct c as [|v c]; [reflexivity|].
  simpl upds. rewrite IH by (intros Hk; apply H; simpl; auto). unfold upd.
  destruct (Nat.eqb_spec k j) as [->|]; [|reflexivity]. exfalso. apply H. simpl. auto.
Qed.

(* distinct bound indices read back the component they were bound to *)
Lemma upds_read jj : forall rho c, NoDup (ids jj) -> length c = length jj ->
  map (idxval (upds rho jj c)) (map Free (ids jj)) = c.
Proof.
  induction jj as [|[j d] jj IH]; intros rho c N L; destruct c as [|v c]; try discriminate L; [reflexivity|].
  inversion N as [|x y Nj Nt]. subst. cbn [ids map idxval upds]. f_equal.
  - rewrite upds_notin by exact Nj. unfold upd. rewrite Nat.eqb_refl. reflexivity.
  - apply IH; auto.
Qed.

(* as_tensor(A[ii], ii) evaluates A under the valuation that binds ii to the component *)
Lemma den_ct_ids A0 jj s rho c : NoDup (ids jj) -> length c = length jj ->
  DEN s rho (ComponentTensor (Indexed A0 (map Free (ids jj))) jj) c = DEN s (upds rho jj c) A0 c.
Proof. intros N L. cbn [den]. rewrite (upds_read jj rho c N L). reflexivity. Qed.

(* as_tensor(A[ii], ii) -> A : sound when the ii are distinct and A does not depend on them *)
Theorem C05_component_tensor_indexed A0 jj :
  NoDup (ids jj) -> (forall j, In j (ids jj) -> indep A0 j) -> map snd jj = shape A0 ->
  shape A0 = shape (ComponentTensor (Indexed A0 (map Free (ids jj))) jj) /\
  forall s rho c, length c = length jj ->
    DEN s rho A0 c = DEN s rho (ComponentTensor (Indexed A0 (map Free (ids jj))) jj) c.
Proof.
  intros N I Sh. split; [symmetry; exact Sh|]. intros s rho c L.
  rewrite (den_ct_ids A0 jj s rho c N L). symmetry. apply upds_indep, I.
Qed.

(* ListTensor.__new__ *)
(* [v[0], ..., v[n-1]] -> v *)
Theorem C05_list_tensor_indexed v n k :
  k < n ->
  forall s rho, DEN s rho (ListTensor (map (fun m => Indexed v [Fixed m]) (seq 0 n))) [k] = DEN s rho v [k].
Proof.
  intros Hk s rho. rewrite den_ListTensor, nth_error_map.
  rewrite (nth_error_nth' (seq 0 n) 0) by (rewrite seq_length; exact Hk).
  rewrite seq_nth by exact Hk. reflexivity.
Qed.

(* [v[0,:], v[1,:], ...] -> v : the k-th entry must be as_tensor(v[k, jj_k], jj_k) with exactly the
   trailing indices, in order, distinct, and not free in v *)
Definition ct_row (v : expr) (k : nat) (jj : list (nat * nat)) : expr :=
  ComponentTensor (Indexed v (Fixed k :: map Free (ids jj))) jj.

Theorem C05_list_tensor_ct_partial v (rows : list (list (nat * nat))) k c :
  k < length rows ->
  (forall jj, In jj rows -> NoDup (ids jj) /\ (forall j, In j (ids jj) -> indep v j)) ->
  length c = length (nth k rows []) ->
  forall s rho,
    DEN s rho (ListTensor (map (fun p => ct_row v (fst p) (snd p)) (combine (seq 0 (length rows)) rows))) (k :: c)
    = DEN s rho v (k :: c).
Proof.
  intros Hk H L s rho. destruct (H (nth k rows []) (nth_In rows [] Hk)) as [N I].
  rewrite den_ListTensor, nth_error_map.
  rewrite (nth_error_nth' _ (0, [])) by (rewrite combine_length, seq_length, Nat.min_id; exact Hk).
  rewrite combine_nth by apply seq_length. rewrite seq_nth by exact Hk.
  cbn [option_map fst snd ct_row den map idxval Nat.add]. rewrite (upds_read _ rho c N L).
  apply upds_indep, I.
Qed.

(* Conditional.__new__ *)
Definition mk_conditional (c : cond) (t f : expr) : expr :=
  if expr_eq_dec t f then t else Conditional c t f.

Theorem C05_conditional_sound c t f :
  (forall (b : B A) (x : A), kcond b x x = x) ->
  shape (mk_conditional c t f) = shape (Conditional c t f) /\
  fidx (mk_conditional c t f) = fidx (Conditional c t f) /\
  forall s rho cc, DEN s rho (mk_conditional c t f) cc = DEN s rho (Conditional c t f) cc.
Proof.
  intros H. unfold mk_conditional. destruct (expr_eq_dec t f) as [->|]; repeat split; auto.
  intros. cbn [den]. rewrite H. reflexivity.
Qed.

End Index.

(* executable models of the recursive constructors: used by the structural correspondence with the
   implementation (tie T3), by Props/C05_rec.v and by Props/C05_findings.v *)

Section Exec.
Variable le : expr -> expr -> bool.
Variable ffold : nat -> expr -> expr -> expr.
(* which of the repairs of the known findings the modelled tree contains (the check detects this by
   probing the implementation; the theorems of Props/C05_rec.v hold for every value of the flags):
   fx_is: IndexSum._simplify_indexed refuses a multiindex that contains the summation index;
   fx_ct: ComponentTensor._simplify_indexed uses rep.get(kk[0]) instead of rep[kk[0]];
   fx_lt: ListTensor.__new__ requires each row to bind exactly its trailing indices *)
Variables fx_is fx_ct fx_lt : bool.
(* fx_cn: ComponentTensor.__new__ keeps as_tensor(A[ii], ii) when A has one of the ii as a free index
          (/repo a0002a9);  fx_at: the same guard in the function as_tensor();
   fx_cs: ComponentTensor._simplify_indexed re-indexes C / selects a list-tensor entry only when C does not
          depend on the bound indices *)
Variables fx_cn fx_at fx_cs : bool.

Fixpoint mk_index_sum (fuel : nat) (a : expr) (i d : nat) : option expr :=
  match fuel with
  | O => None
  | S fuel' =>
      if negb (mem i (ids (fidx a))) then None      (* fi.index(j.count()) raises *)
      else match a with
           | Zero sh fi => Some (Zero sh (fi_remove i fi))
           | Product x y =>
               if negb (mem i (ids (fidx x))) then
                 match mk_index_sum fuel' y i d with
                 | Some y' => mk_product le ffold x y' | None => None end
               else if negb (mem i (ids (fidx y))) then
                 match mk_index_sum fuel' x i d with
                 | Some x' => mk_product le ffold y x' | None => None end
               else Some (IndexSum a i d)
           | _ => Some (IndexSum a i d)
           end
  end.

Definition all_in (jj : list (nat * nat)) (kk : list idx) : bool :=
  forallb (fun p => mi_has (fst p) kk) jj.

Fixpoint mk_indexed (fuel : nat) (a : expr) (mi : list idx) : option expr :=
  match fuel with
  | O => None
  | S fuel' =>
    match mi with
    | [] => Some a
    | m0 :: mi' =>
      match a with
      | Zero sh fi => Some (Zero [] (fi_merge fi (mi_free mi sh)))
      | Sum x y =>
          match mk_indexed fuel' x mi, mk_indexed fuel' y mi with
          | Some x', Some y' => mk_sum le ffold x' y'
          | _, _ => None
          end
      | IndexSum x i d =>
          if fx_is && mi_has i mi then Some (Indexed a mi)
          else match mk_indexed fuel' x mi with
               | Some x' => mk_index_sum fuel' x' i d
               | None => None
               end
      | ListTensor es =>
          match m0 with
          | Fixed k => match nth_error es k with
                       | Some sub => mk_indexed fuel' sub mi'
                       | None => None
                       end
          | Free _ => Some (Indexed a mi)
          end
      | ComponentTensor B jj =>
          if negb (Nat.eqb (length mi) (length jj)) then None
          else
            let st :=
              match B with
              | Indexed (ListTensor es) [kx] =>
                  match kx with
                  | Free k =>
                      match lookup k jj mi None with
                      | None => if fx_ct then Some (B, jj, mi) else None   (* KeyError: rep[kk[0]] *)
                      | Some (Fixed n) =>
                          if fx_cs && mem k (ids (fidx (ListTensor es))) then Some (B, jj, mi) else
                          match nth_error es n with
                          | Some sub =>
                              let jj' := filter (fun p => negb (Nat.eqb (fst p) k)) jj in
                              Some (sub, jj', map (fun p => subst_idx jj mi (Free (fst p))) jj')
                          | None => None
                          end
                      | Some (Free _) => Some (B, jj, mi)
                      end
                  | Fixed _ => if fx_ct then Some (B, jj, mi) else None
                  end
              | _ => Some (B, jj, mi)
              end in
            match st with
            | None => None
            | Some (B', jj', mi2) =>
                match B' with
                | Indexed C kk =>
                    if all_in jj' kk && (negb fx_cs || disjointb jj' (fidx C))
                    then mk_indexed fuel' C (map (subst_idx jj' mi2) kk)
                    else Some (Indexed a mi)
                | _ => Some (Indexed a mi)
                end
            end
      | _ => Some (Indexed a mi)
      end
    end
  end.

Definition ct_generic (a : expr) (jj : list (nat * nat)) : option expr :=
  if forallb (fun p => mem (fst p) (ids (fidx a))) jj && (if shape_eq_dec (shape a) [] then true else false)
  then Some (ComponentTensor a jj) else None.

Definition mk_component_tensor (a : expr) (jj : list (nat * nat)) : option expr :=
  match a with
  | Zero _ fi =>
      if forallb (fun p => mem (fst p) (ids fi)) jj
      then Some (Zero (map snd jj) (fold_left (fun acc p => fi_remove (fst p) acc) jj fi)) else None
  | Indexed A0 ii =>
      if (if mi_eq_dec ii (map Free (ids jj)) then true else false) && (negb fx_cn || disjointb jj (fidx A0))
      then Some A0 else ct_generic a jj
  | _ => ct_generic a jj
  end.

(* the function as_tensor(expr, indices) has its own copy of the shortcut *)
Definition mk_as_tensor (a : expr) (jj : list (nat * nat)) : option expr :=
  match jj with
  | [] => Some a
  | _ => match a with
         | Indexed A0 ii =>
             if (if mi_eq_dec ii (map Free (ids jj)) then true else false) && (negb fx_at || disjointb jj (fidx A0))
             then Some A0 else mk_component_tensor a jj
         | _ => mk_component_tensor a jj
         end
  end.

(* ListTensor.__new__ (the shortcut "[v[j,0],...,v[j,n-1]] -> v[j,:]" only for j = ()) *)
Definition base_of (e : expr) : option (expr * list idx) :=
  match e with Indexed v mi => Some (v, mi) | _ => None end.
Definition ct_base_of (e : expr) : option (expr * list idx) :=
  match e with ComponentTensor (Indexed v mi) _ => Some (v, mi) | _ => None end.

Definition same_base (get : expr -> option (expr * list idx)) (es : list expr) : option expr :=
  match es with
  | e0 :: _ =>
      match get e0 with
      | Some (v, _) =>
          if forallb (fun e => match get e with
                               | Some (w, _) => if expr_eq_dec v w then true else false
                               | None => false end) es
          then Some v else None
      | None => None
      end
  | [] => None
  end.

Definition lt_shortcut_indexed (es : list expr) : option expr :=
  match same_base base_of es with
  | Some v =>
      if Nat.eqb (last (shape v) 0) (length es) &&
         forallb (fun p => match base_of (snd p) with
                           | Some (_, [Fixed m]) => Nat.eqb m (fst p)
                           | _ => false end) (combine (seq 0 (length es)) es)
      then Some v else None
  | None => None
  end.

Definition free_ids (mi : list idx) : list nat :=
  flat_map (fun x => match x with Free j => [j] | Fixed _ => [] end) mi.
Fixpoint nodupb (l : list nat) : bool :=
  match l with [] => true | x :: t => negb (mem x t) && nodupb t end.
(* the guard added by the repair: the row binds exactly its trailing indices, in order, each once, and
   none of them is free in the indexed tensor *)
Definition lt_row_exact (v e : expr) : bool :=
  match e with
  | ComponentTensor (Indexed _ (_ :: rest)) jj =>
      (if mi_eq_dec rest (map Free (ids jj)) then true else false) && nodupb (free_ids rest) &&
      forallb (fun j => negb (mem j (ids (fidx v)))) (free_ids rest)
  | _ => false
  end.

Definition lt_shortcut_ct (es : list expr) : option expr :=
  match same_base ct_base_of es with
  | Some v =>
      if Nat.eqb (hd 0 (shape v)) (length es) &&
         forallb (fun p => match ct_base_of (snd p) with
                           | Some (_, Fixed m :: rest) =>
                               Nat.eqb m (fst p) &&
                               forallb (fun x => match x with Free _ => true | Fixed _ => false end) rest &&
                               (negb fx_lt || lt_row_exact v (snd p))
                           | _ => false end) (combine (seq 0 (length es)) es)
      then Some v else None
  | None => None
  end.

Definition mk_list_tensor (es : list expr) : option expr :=
  match es with
  | [] => None
  | e0 :: _ =>
      if forallb (fun e => (if shape_eq_dec (shape e) (shape e0) then true else false) &&
                           (if fi_eq_dec (fidx e) (fidx e0) then true else false)) es
      then
        if forallb is_zero es then Some (Zero (length es :: shape e0) (fidx e0))
        else match lt_shortcut_indexed es with
             | Some v => Some v
             | None => match lt_shortcut_ct es with
                       | Some v => Some v
                       | None => Some (ListTensor es)
                       end
             end
      else None
  end.

(* the part of [lt_row_exact] that the witnesses of Props/C05_findings.v violate: each row's index tuple is
   exactly the tuple of trailing indices of its Indexed operand *)
Definition lt_ct_exact (es : list expr) : bool :=
  forallb (fun e => match e with
                    | ComponentTensor (Indexed _ (_ :: rest)) jj =>
                        if mi_eq_dec rest (map Free (ids jj)) then true else false
                    | _ => false end) es.

End Exec.

(* comparison modulo the operand order of Sum and Product (decided by ufl/sorting.py, C29).  [ekey] orders
   the operands: the tags 1 ... 17 are arbitrary distinct numbers for the node types the constructors of
   this property build; every other node (CplxV among them) has the key [99], and two such operands of a
   Sum or Product are left in the order they come in. *)
Fixpoint zlist_cmp (a b : list Z) : comparison :=
  match a, b with
  | [], [] => Eq | [], _ => Lt | _, [] => Gt
  | x :: a', y :: b' => match Z.compare x y with Eq => zlist_cmp a' b' | c => c end
  end.
Definition zn (n : nat) : Z := Z.of_nat n.
Definition key_mi (mi : list idx) : list Z :=
  flat_map (fun x => match x with Fixed n => [0%Z; zn n] | Free i => [1%Z; zn i] end) mi.
Definition key_fi (l : list (nat * nat)) : list Z := flat_map (fun p => [zn (fst p); zn (snd p)]) l.
Fixpoint ekey (e : expr) : list Z :=
  (match e with
   | Zero sh fi => 1 :: zn (length sh) :: map zn sh ++ key_fi fi
   | IntV z => [2; z]
   | RealV m x => [3; m; x]
   | RatV p q => [4; p; Zpos q]
   | Term k id sh => 5 :: zn k :: zn id :: map zn sh
   | Sum a b => 6 :: ekey a ++ ekey b
   | Product a b => 7 :: ekey a ++ ekey b
   | Division a b => 8 :: ekey a ++ ekey b
   | Power a b => 9 :: ekey a ++ ekey b
   | Abs a => 10 :: ekey a
   | Conj a => 11 :: ekey a
   | Real a => 12 :: ekey a
   | Imag a => 13 :: ekey a
   | Indexed a mi => 14 :: zn (length mi) :: key_mi mi ++ ekey a
   | IndexSum a i d => 15 :: zn i :: zn d :: ekey a
   | ComponentTensor a ix => 16 :: zn (length ix) :: key_fi ix ++ ekey a
   | ListTensor es => 17 :: zn (length es) :: (fix go (l : list expr) := match l with [] => [] | x :: t => ekey x ++ go t end) es
   | _ => [99]
   end)%Z.
Fixpoint canon (e : expr) : expr :=
  match e with
  | Sum a b => let a' := canon a in let b' := canon b in
               match zlist_cmp (ekey a') (ekey b') with Gt => Sum b' a' | _ => Sum a' b' end
  | Product a b => let a' := canon a in let b' := canon b in
               match zlist_cmp (ekey a') (ekey b') with Gt => Product b' a' | _ => Product a' b' end
  | Division a b => Division (canon a) (canon b)
  | Power a b => Power (canon a) (canon b)
  | Abs a => Abs (canon a) | Conj a => Conj (canon a) | Real a => Real (canon a) | Imag a => Imag (canon a)
  | Indexed a mi => Indexed (canon a) mi
  | IndexSum a i d => IndexSum (canon a) i d
  | ComponentTensor a ix => ComponentTensor (canon a) ix
  | ListTensor es => ListTensor (map canon es)
  | Conditional c t f => Conditional c (canon t) (canon f)
  | _ => e
  end.
Definition le_any (a b : expr) : bool := true.
Definition ff_none (op : nat) (a b : expr) : expr := a.
Definition same_modc (r : option expr) (out : expr) : bool :=
  match r with Some e => if expr_eq_dec (canon e) (canon out) then true else false | None => false end.

Print Assumptions C05_sum_sound.
Print Assumptions C05_product_sound.
Print Assumptions C05_division_sound.
Print Assumptions C05_power_sound.
Print Assumptions C05_abs_sound.
Print Assumptions C05_abs_fixed_sound.
Print Assumptions C05_conj_sound.
Print Assumptions C05_real_sound.
Print Assumptions C05_imag_sound.
Print Assumptions C05_indexed_zero.
Print Assumptions C05_indexed_sum.
Print Assumptions C05_indexed_list_tensor.
Print Assumptions C05_indexed_index_sum_partial.
Print Assumptions C05_index_sum_zero.
Print Assumptions C05_index_sum_factor.
Print Assumptions C05_indexed_ct_partial.
Print Assumptions C05_indexed_ct_list_tensor.
Print Assumptions C05_component_tensor_zero.
Print Assumptions C05_component_tensor_indexed.
Print Assumptions C05_list_tensor_indexed.
Print Assumptions C05_list_tensor_ct_partial.
Print Assumptions C05_conditional_sound.
