(* C23: syntactic theorems (all constructors): rejection in complex mode, real-mode removal. *)
Require Import UFLV.Core.Facts.
Require Import UFLV.Props.C21_ind.
Require Import UFLV.Props.C23_model.
Require Import UFLV.Props.C23_syn.

Section FX.
Variable cfn : mathfn -> bool.
Variable cbs : bkind -> bool.
Local Notation check := (C23_model.check cfn cbs).
Local Notation checkc := (C23_model.checkc cfn cbs).
Local Notation ty_of := (C23_model.ty_of cfn cbs).
Local Notation bad_site := (C23_model.bad_site cfn cbs).

(* [check_verdict], read at an accepted and at a rejected expression *)
Lemma accepted e e' t : check e = Some (e', t) ->
  forallb wrapped_site (sites e') = true /\ existsb bad_site (sites e) = false.
Proof. intros E. pose proof (proj1 (check_verdict cfn cbs) e) as V. unfold Vx in V. rewrite E in V. exact V. Qed.
Lemma rejected e : check e = None -> existsb bad_site (sites e) = true.
Proof. intros E. pose proof (proj1 (check_verdict cfn cbs) e) as V. unfold Vx in V. rewrite E in V. exact V. Qed.

(* C23_wrap: every ordering comparison / min / max of an accepted output has operands of the form
   Real(.) (or a real literal / Zero, which is what Real.__new__ returns for them) *)
Theorem C23_wrap : forall e e' t,
  check e = Some (e', t) -> forall a b, In (a, b) (sites e') -> wrapped a = true /\ wrapped b = true.
Proof.
  intros e e' t H a b Hin. destruct (accepted e e' t H) as [W _].
  rewrite forallb_forall in W. apply andb_true_iff. exact (W _ Hin).
Qed.

(* C23_reject: an ordering comparison / min / max anywhere in e with an operand of nodetype complex
   makes the whole check fail (ComplexComparisonError) *)
Theorem C23_reject : forall e a b ta tb,
  In (a, b) (sites e) -> ty_of a = Some ta -> ty_of b = Some tb ->
  ta = TComplex \/ tb = TComplex -> check e = None.
Proof.
  intros e a b ta tb Hin Ha Hb Hc.
  destruct (check e) as [[e' t]|] eqn:E; [|reflexivity].
  destruct (accepted e e' t E) as [_ W].
  assert (X : existsb bad_site (sites e) = true); [|congruence].
  apply existsb_exists. exists (a, b). split; [exact Hin|].
  unfold C23_model.bad_site; cbn [fst snd]. rewrite Ha, Hb.
  destruct Hc; subst; [reflexivity | apply orb_true_r].
Qed.

(* ... and that is the only reason for rejecting *)
Theorem C23_reject_only : forall e,
  check e = None ->
  exists a b, In (a, b) (sites e) /\
    (ty_of a = None \/ ty_of b = None \/ ty_of a = Some TComplex \/ ty_of b = Some TComplex).
Proof.
  intros e H. apply rejected, existsb_exists in H. destruct H as [[a b] [Hin Hb]].
  exists a, b. split; [exact Hin|].
  unfold C23_model.bad_site in Hb; cbn [fst snd] in Hb.
  destruct (ty_of a) as [[]|]; destruct (ty_of b) as [[]|]; try discriminate Hb; auto.
Qed.

End FX.

(* [remove] rejects exactly the expressions containing an Imag node or a complex literal, and its
   outputs contain no Conj / Real / Imag node and no complex literal *)
Definition Rx (e : expr) : Prop := verdict (remove e) cfree (has_ic e).
Definition Rc (c : cond) : Prop := verdict (removec c) cfreec (has_icc c).

Lemma R_list es : Forall Rx es -> verdict (remove_list es) cfree_list (has_ic_list es).
Proof.
  induction 1 as [|x es Hx _ IH]; [split; reflexivity|].
  exact (verdict_map2 cons _ _ _ _ cfree_list _ _ Hx IH (fun _ _ => eq_refl)).
Qed.

Lemma remove_verdict : (forall e, Rx e) /\ (forall c, Rc c).
Proof.
  apply expr_cond_full_ind; unfold Rx, Rc; intros; cbn [remove removec has_ic has_icc];
    unfold o1, o2.
  (* literals and terminals; the complex literal is rejected *)
  1-8: first [split; reflexivity | reflexivity].
  (* Conj, Real: the operand; Imag: rejected *)
  all: try assumption.
  all: try reflexivity.
  all: try solve [eapply verdict_map; [eassumption | reflexivity]].
  all: try solve [eapply verdict_map2; [eassumption | eassumption | reflexivity]].
  - (* ListTensor *) exact (verdict_map ListTensor _ _ cfree _ (R_list es H) (fun _ => eq_refl)).
  - (* Conditional *) eapply verdict_map3; [eassumption | eassumption | eassumption | reflexivity].
Qed.

(* real mode rejects exactly the expressions containing an Imag node or a complex literal *)
Theorem C23_remove_reject_iff : forall e, remove e = None <-> has_ic e = true.
Proof.
  intros e. pose proof (proj1 remove_verdict e) as V. unfold Rx in V.
  destruct (remove e) as [e'|]; cbn in V; [|tauto].
  destruct V as [_ V]. rewrite V. split; discriminate.
Qed.

(* the output of real mode contains no Conj / Real / Imag node and no complex literal *)
Theorem C23_remove_clean : forall e e', remove e = Some e' -> cfree e' = true.
Proof. intros e e' H. pose proof (proj1 remove_verdict e) as V. unfold Rx in V. rewrite H in V. apply V. Qed.
Print Assumptions C23_wrap.
Print Assumptions C23_reject.
Print Assumptions C23_reject_only.
Print Assumptions C23_remove_reject_iff.
Print Assumptions C23_remove_clean.
