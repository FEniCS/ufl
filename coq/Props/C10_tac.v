(* C10 - the tactic of the generated obligations den (pass e) c = den e c for the index rewriting passes
   (coq/Gen/C10_t2_*.v).

   With the free indices given values both sides evaluate to expressions over the operations of the algebra
   (Section variables of the generated files) that differ in the order of sums and products, also inside
   the arguments of the operations ring does not know, and by conditionals that UFL's constructor has
   replaced by their branch.  U V are the groups of Section variables as Props/C03_tac.v takes them
   (U : conj re im abs fn pow atan2 cmp cond_ min_ max_, V : env Dx DX); [cond_same] and [char0] are
   hypotheses of the generated Section. *)
Require Import UFLV.Core.Tac UFLV.Props.C03_tac.

(* Applications with equal arguments get one name ([name_atoms_by] of C03_tac: innermost first, each pair
   compared once by [eqt]).  A conditional whose branches have become equal that way is the constructor's
   simplification: the names are dropped, it is rewritten, and the naming starts again. *)
Ltac name_pass U V cond_same eqt :=
  name_atoms_by U V eqt eqt;
  U ltac:(fun _ _ _ _ _ _ _ _ cond_ _ _ =>
      try (lazymatch goal with _ := cond_ _ ?x ?x |- _ => idtac end;
           unname; rewrite ?cond_same; name_pass U V cond_same eqt)
  ).

(* Evaluate; conditionals with syntactically equal branches; then ring (field where a literal divides), at
   once or after the naming.  [cond_same] and [char0] are used only where a rewrite or a division needs
   them, so an obligation rests on them only then. *)
Ltac close_pass U V cond_same char0 :=
  let fin := ltac:(idtac; first [ reflexivity | ring | field; nz_solve char0 ]) in
  norm_goal; rewrite ?cond_same;
  first [ fin | name_pass U V cond_same fin; fin ].

(* The model of the pass run on the input gives the implementation's output: the same tree, or, where a
   constructor of UFL has simplified it, the same value for every valuation and component ([vals] closes
   one of them).  [out] is printed then: the check counts these cases. *)
Ltac model_ties out vals :=
  first [ left; vm_compute; reflexivity
        | idtac "T3V" out; right; split; [ vm_compute; discriminate | intros; repeat split; vals ] ].
