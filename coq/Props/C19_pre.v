(* C19 - pre_traversal and unique_pre_traversal of ufl/corealg/traversal.py as fuelled stack
   machines; closed form of the plain traversal, and for the unique traversal (all trees):
   no duplicates, exactly the structurally distinct sub-expressions, the root first and every other
   node after one of its users; fuel size+1 suffices. *)
Require Import List Arith Lia Bool.
Require Import UFLV.Props.C19_tree.
Import ListNotations.

(* lifo: head = top of the Python list; `for op in operands: lifo.append(op)` leaves the last operand on top *)
Fixpoint pre_run (fuel : nat) (lifo : list tree) (out : list tree) : option (list tree) :=
  match fuel with
  | 0 => None
  | S f => match lifo with
           | [] => Some (rev out)
           | e :: rest => pre_run f (rev (ops e) ++ rest) (e :: out)
           end
  end.

Definition pre_traversal (t : tree) : option (list tree) := pre_run (size t + 1) [t] [].

Fixpoint pre_rec (t : tree) : list tree :=
  match t with Node _ cs => t :: concat (rev (map pre_rec cs)) end.

Lemma pre_rec_unfold : forall t, pre_rec t = t :: flat_map pre_rec (rev (ops t)).
Proof. destruct t. simpl. rewrite concat_rev_map. reflexivity. Qed.

Lemma pre_run_spec : forall fuel lifo out, list_sum (map size lifo) < fuel ->
  pre_run fuel lifo out = Some (rev out ++ flat_map pre_rec lifo).
Proof.
  induction fuel; intros lifo out Hf; [lia|].
  destruct lifo as [|e rest]; simpl.
  - rewrite app_nil_r. reflexivity.
  - rewrite IHfuel.
    + rewrite flat_map_app, pre_rec_unfold. simpl. rewrite <- !app_assoc. reflexivity.
    + rewrite map_app, list_sum_app, map_rev, list_sum_rev.
      simpl in Hf. destruct e; simpl in *. lia.
Qed.

Theorem C19_pre_traversal : forall t, pre_traversal t = Some (pre_rec t).
Proof.
  intros. unfold pre_traversal. rewrite pre_run_spec; simpl; [|lia]. rewrite app_nil_r. reflexivity.
Qed.

Lemma pre_rec_In : forall t x, In x (pre_rec t) <-> In x (subterms t).
Proof.
  induction t as [t IH] using tree_ops_ind. intros x.
  rewrite pre_rec_unfold, subterms_unfold. simpl. rewrite in_flat_map, in_concat_map.
  split; (intros [Hx|(c & Hc & Hx)]; [left; exact Hx|right; exists c]).
  - apply in_rev in Hc. split; [exact Hc|apply IH; assumption].
  - split; [apply in_rev in Hc; exact Hc|apply IH; assumption].
Qed.

Fixpoint pushl (cs : list tree) (lifo vis : list tree) : list tree * list tree :=
  match cs with
  | [] => (lifo, vis)
  | c :: r => if mem c vis then pushl r lifo vis else pushl r (c :: lifo) (c :: vis)
  end.

Fixpoint upre_run (fuel : nat) (lifo vis out : list tree) : option (list tree * list tree) :=
  match fuel with
  | 0 => None
  | S f => match lifo with
           | [] => Some (rev out, vis)
           | e :: rest => let (l', v') := pushl (ops e) rest vis in upre_run f l' v' (e :: out)
           end
  end.

Definition unique_pre_traversal (t : tree) (visited : list tree) :=
  upre_run (size t + 1) [t] (t :: visited) [].

(* the operands pushed are those not visited before, each once; afterwards all operands are visited *)
Lemma pushl_spec : forall cs lifo vis, exists new,
  pushl cs lifo vis = (new ++ lifo, new ++ vis) /\ NoDup new /\
  (forall x, In x new -> In x cs /\ ~ In x vis) /\
  (forall c, In c cs -> In c (new ++ vis)).
Proof.
  induction cs as [|c r IH]; intros lifo vis; simpl.
  - exists []. simpl. repeat split; auto; try tauto. constructor.
  - destruct (mem c vis) eqn:Hm.
    + destruct (IH lifo vis) as (new & He & Hn & Hi & Hc). exists new. repeat split; auto.
      * right. apply Hi; auto.
      * apply Hi; auto.
      * intros c' [<-|Hc']; auto. apply in_or_app. right. apply mem_In; auto.
    + apply mem_nIn in Hm.
      destruct (IH (c :: lifo) (c :: vis)) as (new & He & Hn & Hi & Hc).
      exists (new ++ [c]). rewrite <- !app_assoc. simpl. repeat split; auto.
      * apply NoDup_app_intro; [exact Hn|repeat constructor; simpl; tauto|].
        intros x Hx [<-|[]]. apply (Hi c Hx). simpl; auto.
      * apply in_app_or in H. destruct H as [H|[<-|[]]]; auto. right. apply Hi; auto.
      * apply in_app_or in H. destruct H as [H|[<-|[]]]; auto.
        intros Hv. destruct (Hi x H) as [_ Hnx]. apply Hnx. simpl; auto.
      * intros c' [<-|Hc']; [apply in_or_app; right; simpl; auto|]. apply Hc; auto.
Qed.

Section UPre.
Variable t : tree.

(* x is the root or an operand of a node of S *)
Definition from (S : list tree) (x : tree) : Prop := x = t \/ exists p, In p S /\ In x (ops p).

Lemma from_cons : forall S e x, from S x -> from (e :: S) x.
Proof. intros S e x [->|(p & Hp & Hx)]; [left; reflexivity|right; exists p; simpl; auto]. Qed.

(* out is latest-first: every yielded node is the root or has a user yielded earlier *)
Fixpoint PO (out : list tree) : Prop :=
  match out with
  | [] => True
  | x :: earlier => from earlier x /\ PO earlier
  end.

Record Inv (lifo vis out : list tree) : Prop := {
  i_nd_out : NoDup out;
  i_nd_lifo : NoDup lifo;
  i_disj : forall x, In x out -> ~ In x lifo;
  i_vis : forall x, In x vis <-> In x out \/ In x lifo;
  i_sub : forall x, In x vis -> In x (subterms t);
  i_closed : forall x, In x out -> forall c, In c (ops x) -> In c vis;
  i_root : In t vis;
  i_po : PO out;
  i_par : forall x, In x lifo -> from out x
}.

Lemma Inv_init : Inv [t] [t] [].
Proof.
  constructor; simpl; auto; try tauto.
  - constructor.
  - repeat constructor. simpl; tauto.
  - intros x [<-|[]]. apply subterms_self.
  - intros x [<-|[]]. left. reflexivity.
Qed.

Lemma Inv_step : forall e rest vis out, Inv (e :: rest) vis out ->
  Inv (fst (pushl (ops e) rest vis)) (snd (pushl (ops e) rest vis)) (e :: out).
Proof.
  intros e rest vis out I. destruct (pushl_spec (ops e) rest vis) as (new & He & Hn & Hi & Hc).
  rewrite He. simpl. destruct I as [I1 I2 I3 I4 I5 I6 I7 I8 I9].
  assert (Hevis : In e vis) by (apply I4; right; simpl; auto).
  inversion I2 as [|? ? Herest Hndrest]; subst.
  constructor.
  - constructor; auto. intros Ho. apply (I3 e Ho). simpl; auto.
  - apply NoDup_app_intro; auto. intros x Hx Hr. apply (proj2 (Hi x Hx)). apply I4. right. simpl; auto.
  - intros x [<-|Hx] Hl; apply in_app_or in Hl; destruct Hl as [Hl|Hl].
    + apply (proj2 (Hi e Hl)); auto.
    + contradiction.
    + apply (proj2 (Hi x Hl)). apply I4; auto.
    + apply (I3 x Hx). simpl; auto.
  - intros x. rewrite !in_app_iff, I4. simpl.
    split; [intros [H|[H|[H|H]]]|intros [[H|H]|[H|H]]]; auto.
  - intros x Hx. apply in_app_or in Hx. destruct Hx as [Hx|Hx]; auto.
    apply (subterms_ops t e x); [auto|apply (proj1 (Hi x Hx))].
  - intros x [<-|Hx] c Hcin.
    + apply Hc; auto.
    + apply in_or_app. right. eapply I6; eauto.
  - apply in_or_app; auto.
  - simpl. split; auto. apply I9. simpl; auto.
  - intros x Hx. apply in_app_or in Hx. destruct Hx as [Hx|Hx].
    + right. exists e. split; [simpl; auto|apply (proj1 (Hi x Hx))].
    + apply from_cons, I9. simpl; auto.
Qed.

Definition Final (o : list tree) : Prop :=
  NoDup o /\
  (forall x, In x o <-> In x (subterms t)) /\
  (forall o1 x o2, o = o1 ++ x :: o2 -> from o1 x).

Lemma PO_split : forall out o2 x o1, PO out -> out = o2 ++ x :: o1 -> from o1 x.
Proof.
  induction out; intros o2 x o1 Hpo Heq.
  - destruct o2; discriminate.
  - destruct o2 as [|y o2]; simpl in Heq; inversion Heq; subst.
    + apply Hpo.
    + simpl in Hpo. eapply IHout; [apply Hpo|reflexivity].
Qed.

Lemma Inv_final : forall vis out, Inv [] vis out -> Final (rev out).
Proof.
  intros vis out [I1 I2 I3 I4 I5 I6 I7 I8 I9]. unfold Final.
  assert (Hvo : forall x, In x vis <-> In x out).
  { intros x. rewrite I4. simpl. tauto. }
  split; [|split].
  - apply NoDup_rev; auto.
  - intros x. rewrite <- in_rev. split.
    + intros Hx. apply I5. apply Hvo; auto.
    + intros Hx. apply (closed_contains_subterms (fun y => In y out)) with (t := t); auto.
      * intros y Hy c Hcin. apply Hvo. eapply I6; eauto.
      * apply Hvo; auto.
  - intros o1 x o2 Heq.
    assert (Hout : out = rev o2 ++ x :: rev o1).
    { rewrite <- (rev_involutive out), Heq, rev_app_distr. simpl. rewrite <- app_assoc. reflexivity. }
    destruct (PO_split out (rev o2) x (rev o1) I8 Hout) as [->|(p & Hp & Hxp)]; [left; reflexivity|].
    right. exists p. split; auto. apply in_rev; auto.
Qed.

Lemma out_bound : forall lifo vis out, Inv lifo vis out -> length out <= size t.
Proof.
  intros lifo vis out I. rewrite <- length_subterms.
  apply NoDup_incl_length; [apply (i_nd_out _ _ _ I)|].
  intros x Hx. apply (i_sub _ _ _ I). apply (i_vis _ _ _ I). auto.
Qed.

Lemma upre_total : forall fuel lifo vis out, Inv lifo vis out -> size t < fuel + length out ->
  exists o v, upre_run fuel lifo vis out = Some (o, v) /\ Final o.
Proof.
  induction fuel; intros lifo vis out I Hf.
  - pose proof (out_bound _ _ _ I). lia.
  - destruct lifo as [|e rest]; simpl.
    + exists (rev out), vis. split; [reflexivity|]. apply (Inv_final vis), I.
    + pose proof (Inv_step e rest vis out I) as I'.
      destruct (pushl (ops e) rest vis) as [l' v']. simpl in I'.
      apply IHfuel; auto. simpl. lia.
Qed.
End UPre.

(* C19 (pre-order part): for every expression tree, unique_pre_traversal terminates within fuel
   size+1, yields no node twice, yields exactly the structurally distinct sub-expressions, and every
   yielded node is the root or an operand of a node yielded earlier (so the root comes first). *)
Theorem C19_unique_pre : forall t, exists o v,
  unique_pre_traversal t [] = Some (o, v) /\
  NoDup o /\
  (forall x, In x o <-> In x (subterms t)) /\
  (forall o1 x o2, o = o1 ++ x :: o2 -> x = t \/ exists p, In p o1 /\ In x (ops p)) /\
  (exists o', o = t :: o').
Proof.
  intros t. destruct (upre_total t (size t + 1) [t] [t] [] (Inv_init t)) as (o & v & Hr & Hnd & Hin & Hpar);
    [simpl; lia|].
  exists o, v. repeat split; auto; try apply Hin.
  destruct o as [|x o'].
  - exfalso. apply (proj2 (Hin t) (subterms_self t)).
  - destruct (Hpar [] x o' eq_refl) as [->|(p & [] & _)]. eauto.
Qed.
Print Assumptions C19_unique_pre.
Print Assumptions C19_pre_traversal.
