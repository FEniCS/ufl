(* C05 - soundness of the RECURSIVE executable models of Props/C05_model.v (the same functions that
   the structural correspondence compares with the implementation):

     mk_index_sum  (IndexSum.__new__: zero folding, factors moved out of the sum, recursively)
     mk_indexed    (Indexed.__new__ with the _simplify_indexed hooks of Zero, Sum, IndexSum,
                    ListTensor, ComponentTensor, recursively)

   for all operands, all fuel, all index valuations, all UFL algebras:  the value of the result is the
   value of the raw node, provided the side conditions collected along the recursion hold
   ([factor_ok], [ix_ok]).  These side conditions are exactly the hygiene conditions the Python code
   without the repairs [fx_is], [fx_cs] does not check (summation index not in the multiindex; factors moved out of a sum / tensors
   re-indexed through a ComponentTensor do not depend on the bound indices).  The ListTensor[k]
   pre-step of ComponentTensor._simplify_indexed is excluded ([ix_ok] is False there); its one-step
   soundness is C05_indexed_ct_list_tensor. *)
Require Import UFLV.Core.Facts.
Require Import UFLV.Props.C05_model.

Section Rec.
Variable A : ualg.
Add Field AfC05r : (kfield A).
Open Scope K_scope.
Variable env : side -> nat -> nat -> list nat -> A.
Variables D DX : nat -> A -> A.
Variable ki : A.
Notation DEN := (@den A env D DX ki).
Variable le : expr -> expr -> bool.
Variable ffold : nat -> expr -> expr -> expr.
Variables fx_is fx_ct fx_cs : bool.      (* repair flags of the modelled tree: the theorems hold for all values *)
Notation INDEP := (indep A env D DX ki).
Notation MK_INDEXED := (mk_indexed le ffold fx_is fx_ct fx_cs).

(* hygiene along the recursion of IndexSum.__new__: whenever a factor is moved out of the sum
   because the summation index is not among its free indices, its value must not depend on it *)
Fixpoint factor_ok (fuel : nat) (a : expr) (i : nat) : Prop :=
  match fuel with
  | O => True
  | S fuel' =>
      match a with
      | Product x y =>
          if negb (mem i (ids (fidx x))) then INDEP x i /\ factor_ok fuel' y i
          else if negb (mem i (ids (fidx y))) then INDEP y i /\ factor_ok fuel' x i
          else True
      | _ => True
      end
  end.

Theorem C05_index_sum_sound fuel : forall a i d e,
  fp_exact A env D DX ki ffold 1 kmul ->
  mk_index_sum le ffold fuel a i d = Some e -> factor_ok fuel a i ->
  forall s rho, DEN s rho e [] = DEN s rho (IndexSum a i d) [].
Proof.
  induction fuel as [|fuel IH]; intros a i d e FP H OK s rho; [discriminate|].
  cbn [mk_index_sum] in H. destruct (negb (mem i (ids (fidx a)))); [discriminate|].
  destruct a; try (injection H as <-; reflexivity).
  - injection H as <-. cbn [den]. rewrite ksum_zero. reflexivity.
  - (* x * y with x moved out of the sum, whichever of the two operands x is *)
    assert (F : forall x y, INDEP x i -> factor_ok fuel y i ->
              match mk_index_sum le ffold fuel y i d with
              | Some y' => mk_product le ffold x y' | None => None end = Some e ->
              DEN s rho e [] = DEN s rho (IndexSum (Product x y) i d) []).
    { intros x y Ix OKy Hy. destruct (mk_index_sum le ffold fuel y i d) as [y'|] eqn:R; [|discriminate].
      rewrite (mk_product_value A env D DX ki le ffold _ _ _ FP Hy), (IH y i d y' FP R OKy).
      apply den_index_sum_factor. intros k. apply Ix. }
    cbn [factor_ok] in OK. destruct (negb (mem i (ids (fidx a1)))).
    + destruct OK as [I1 OK2]. apply F; assumption.
    + destruct (negb (mem i (ids (fidx a2)))); [|injection H as <-; reflexivity].
      destruct OK as [I2 OK1]. rewrite (F a2 a1 I2 OK1 H).
      cbn [den]. apply ksum_ext. intros k _. ring.
Qed.

Definition is_step1 (B : expr) : bool :=
  match B with Indexed (ListTensor _) [_] => true | _ => false end.

(* side conditions collected along the recursion of Indexed.__new__ / _simplify_indexed *)
Fixpoint ix_ok (fuel : nat) (a : expr) (mi : list idx) : Prop :=
  match fuel with
  | O => True
  | S fuel' =>
    match mi with
    | [] => True
    | m0 :: mi' =>
      match a with
      | Sum x y => ix_ok fuel' x mi /\ ix_ok fuel' y mi
      | IndexSum x i d =>
          if fx_is && mi_has i mi then True      (* repaired tree: the shortcut is refused, raw node *)
          else mi_has i mi = false /\ ix_ok fuel' x mi /\
               (forall x', mk_indexed le ffold fx_is fx_ct fx_cs fuel' x mi = Some x' -> factor_ok fuel' x' i)
      | ListTensor es =>
          match m0 with
          | Fixed k => match nth_error es k with Some sub => ix_ok fuel' sub mi' | None => True end
          | Free _ => True
          end
      | ComponentTensor B jj =>
          if is_step1 B then False          (* the ListTensor[k] pre-step is not covered here *)
          else match B with
               | Indexed C kk =>
                   if all_in jj kk && (negb fx_cs || disjointb jj (fidx C))
                   then (forall j, In j (ids jj) -> INDEP C j) /\ ix_ok fuel' C (map (subst_idx jj mi) kk)
                   else True
               | _ => True
               end
      | _ => True
      end
    end
  end.

(* Indexed(ComponentTensor(B, jj), mi) when the ListTensor pre-step does not apply *)
Lemma mk_indexed_ct_plain fuel B jj m0 mi : is_step1 B = false ->
  MK_INDEXED (S fuel) (ComponentTensor B jj) (m0 :: mi) =
  if negb (Nat.eqb (length (m0 :: mi)) (length jj)) then None
  else match B with
       | Indexed C kk =>
           if all_in jj kk && (negb fx_cs || disjointb jj (fidx C))
           then MK_INDEXED fuel C (map (subst_idx jj (m0 :: mi)) kk)
           else Some (Indexed (ComponentTensor B jj) (m0 :: mi))
       | _ => Some (Indexed (ComponentTensor B jj) (m0 :: mi))
       end.
Proof.
  intros S1. cbn [mk_indexed]. destruct B; try reflexivity.
  destruct B; try reflexivity. destruct mi0 as [|kx [|]]; try reflexivity. discriminate S1.
Qed.

Theorem C05_indexed_sound fuel : forall a mi e,
  fp_exact A env D DX ki ffold 0 kadd -> fp_exact A env D DX ki ffold 1 kmul ->
  mk_indexed le ffold fx_is fx_ct fx_cs fuel a mi = Some e -> ix_ok fuel a mi ->
  forall s rho, DEN s rho e [] = DEN s rho (Indexed a mi) [].
Proof.
  induction fuel as [|fuel IH]; intros a mi e FP0 FP1 H OK s rho; [discriminate|].
  destruct mi as [|m0 mi']; [injection H as <-; reflexivity|].
  destruct a; try (injection H as <-; reflexivity); cbn [ix_ok] in OK.
  - (* Sum *)
    cbn [mk_indexed] in H. destruct OK as [OK1 OK2].
    destruct (MK_INDEXED fuel a1 (m0 :: mi')) as [x'|] eqn:R1; [|discriminate].
    destruct (MK_INDEXED fuel a2 (m0 :: mi')) as [y'|] eqn:R2; [|discriminate].
    rewrite (mk_sum_value A env D DX ki le ffold _ _ _ FP0 H).
    rewrite (IH _ _ _ FP0 FP1 R1 OK1), (IH _ _ _ FP0 FP1 R2 OK2). reflexivity.
  - (* IndexSum *)
    cbn [mk_indexed] in H.
    destruct (fx_is && mi_has i (m0 :: mi')); [injection H as <-; reflexivity|].
    destruct OK as [NH [OK1 OKF]].
    destruct (MK_INDEXED fuel a (m0 :: mi')) as [x'|] eqn:R1; [|discriminate].
    rewrite (C05_index_sum_sound fuel x' i d e FP1 H (OKF x' eq_refl)).
    rewrite <- (den_indexed_index_sum A env D DX ki a i d (m0 :: mi') s rho NH).
    cbn [den]. apply ksum_ext. intros k _. apply (IH _ _ _ FP0 FP1 R1 OK1).
  - (* ComponentTensor *)
    destruct (is_step1 a) eqn:S1; [destruct OK|]. rewrite (mk_indexed_ct_plain fuel a ix m0 mi' S1) in H.
    destruct (negb (Nat.eqb (length (m0 :: mi')) (length ix))); [discriminate|].
    destruct a; try (injection H as <-; reflexivity).
    destruct (all_in ix mi && (negb fx_cs || disjointb ix (fidx a))); [|injection H as <-; reflexivity].
    destruct OK as [IND OKC]. rewrite (IH _ _ _ FP0 FP1 H OKC).
    apply (C05_indexed_ct_partial A env D DX ki a mi ix (m0 :: mi') IND).
  - (* ListTensor *)
    cbn [mk_indexed] in H. destruct m0 as [k|j]; [|injection H as <-; reflexivity].
    destruct (nth_error es k) as [sub|] eqn:N; [|discriminate].
    rewrite (IH _ _ _ FP0 FP1 H OK), !den_Indexed. cbn [map idxval].
    rewrite den_ListTensor, N. reflexivity.
Qed.

End Rec.
Print Assumptions C05_index_sum_sound.
Print Assumptions C05_indexed_sound.
