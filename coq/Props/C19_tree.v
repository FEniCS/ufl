(* C19 - expression DAGs as trees with decidable structural equality.

   A UFL expression is hashed and compared structurally (`Expr.__eq__` = `expr_equals`, `__hash__` =
   `compute_expr_hash`): two nodes are "the same node" of the DAG for every `set`/`dict` of the
   traversal code exactly when they are structurally equal.  A DAG with arbitrary sharing is therefore a
   tree up to structural equality: `Node label children`, where `label` stands for the node's
   non-operand data (type and terminal data). *)
Require Import List PeanoNat Bool.
Import ListNotations.

Inductive tree := Node (label : nat) (children : list tree).

Definition label (t : tree) : nat := match t with Node l _ => l end.
Definition ops (t : tree) : list tree := match t with Node _ cs => cs end.

Section tree_ind2.
  Variable P : tree -> Prop.
  Hypothesis H : forall l cs, Forall P cs -> P (Node l cs).
  Fixpoint tree_ind2 (t : tree) : P t :=
    match t with
    | Node l cs =>
        H l cs ((fix go (cs : list tree) : Forall P cs :=
                   match cs return Forall P cs with
                   | [] => Forall_nil _
                   | c :: r => Forall_cons _ (tree_ind2 c) (go r)
                   end) cs)
    end.
End tree_ind2.

Lemma tree_ops_ind (P : tree -> Prop) :
  (forall t, (forall c, In c (ops t) -> P c) -> P t) -> forall t, P t.
Proof. intros H. induction t using tree_ind2. apply H. apply Forall_forall. assumption. Qed.

Lemma tree_eq_dec : forall a b : tree, {a = b} + {a <> b}.
Proof.
  fix IH 1. intros [la ca] [lb cb].
  destruct (Nat.eq_dec la lb) as [->|Hn]; [|right; congruence].
  destruct (list_eq_dec IH ca cb) as [->|Hn]; [left; reflexivity|right; congruence].
Defined.

Definition mem (x : tree) (l : list tree) : bool := if in_dec tree_eq_dec x l then true else false.

Lemma mem_In : forall x l, mem x l = true <-> In x l.
Proof. intros x l. unfold mem. destruct (in_dec tree_eq_dec x l); split; intros; auto; discriminate. Qed.

Lemma mem_nIn : forall x l, mem x l = false <-> ~ In x l.
Proof. intros x l. unfold mem. destruct (in_dec tree_eq_dec x l); split; intros; auto; try discriminate; contradiction. Qed.

Fixpoint size (t : tree) : nat :=
  match t with Node _ cs => S (list_sum (map size cs)) end.

Lemma size_pos : forall t, 0 < size t.
Proof. destruct t. apply Nat.lt_0_succ. Qed.

Lemma list_sum_rev : forall l, list_sum (rev l) = list_sum l.
Proof.
  induction l; simpl; [reflexivity|]. rewrite list_sum_app, IHl. simpl.
  rewrite Nat.add_0_r. apply Nat.add_comm.
Qed.

Lemma NoDup_app_intro : forall (a b : list tree),
  NoDup a -> NoDup b -> (forall x, In x a -> ~ In x b) -> NoDup (a ++ b).
Proof.
  induction a; simpl; intros; auto.
  inversion H; subst. constructor.
  - rewrite in_app_iff. intros [Hi|Hi]; [contradiction|]. apply (H1 a); auto.
  - apply IHa; auto.
Qed.

Lemma list_sum_in : forall (f : tree -> nat) x l, In x l -> f x <= list_sum (map f l).
Proof.
  induction l; simpl; [tauto|]. intros [->|H]; [apply Nat.le_add_r|].
  apply (Nat.le_trans _ _ _ (IHl H)), Nat.le_add_l.
Qed.

Lemma size_child : forall c t, In c (ops t) -> size c < size t.
Proof. intros c [l cs] H. apply Nat.lt_succ_r, (list_sum_in size c cs H). Qed.

(* all sub-expressions (with multiplicity, as the tree has them) *)
Fixpoint subterms (t : tree) : list tree :=
  match t with Node _ cs => t :: concat (map subterms cs) end.

Lemma subterms_unfold : forall t, subterms t = t :: concat (map subterms (ops t)).
Proof. destruct t; reflexivity. Qed.

Lemma length_subterms : forall t, length (subterms t) = size t.
Proof.
  induction t using tree_ind2. simpl. f_equal.
  induction H as [|c r Hc _ IH]; simpl; [reflexivity|]. rewrite app_length, Hc, IH. reflexivity.
Qed.

Lemma subterms_self : forall t, In t (subterms t).
Proof. destruct t; simpl; auto. Qed.

Lemma in_concat_map : forall (f : tree -> list tree) x l,
  In x (concat (map f l)) <-> exists c, In c l /\ In x (f c).
Proof.
  intros. rewrite in_concat. split.
  - intros (y & Hy & Hx). apply in_map_iff in Hy. destruct Hy as (c & <- & Hc). eauto.
  - intros (c & Hc & Hx). exists (f c). split; auto. apply in_map; auto.
Qed.

Lemma subterms_child : forall x c t, In c (ops t) -> In x (subterms c) -> In x (subterms t).
Proof.
  intros x c t Hc Hx. rewrite subterms_unfold. right. apply in_concat_map. eauto.
Qed.

Lemma subterms_inv : forall x t, In x (subterms t) -> x = t \/ exists c, In c (ops t) /\ In x (subterms c).
Proof.
  intros x t. rewrite subterms_unfold. intros [<-|H]; [auto|]. right. apply in_concat_map in H. exact H.
Qed.

(* the sub-expressions of t are closed under operands *)
Lemma subterms_ops : forall t e c, In e (subterms t) -> In c (ops e) -> In c (subterms t).
Proof.
  induction t as [t IH] using tree_ops_ind. intros e c He Hc. apply subterms_inv in He.
  destruct He as [->|(c0 & Hc0 & He)].
  - apply (subterms_child c c t Hc), subterms_self.
  - apply (subterms_child c c0 t Hc0). apply (IH c0 Hc0 e c He Hc).
Qed.

(* a set that contains t and is closed under operands contains every sub-expression of t *)
Lemma closed_contains_subterms : forall (S : tree -> Prop),
  (forall x, S x -> forall c, In c (ops x) -> S c) ->
  forall t, S t -> forall x, In x (subterms t) -> S x.
Proof.
  intros S Hcl. induction t as [t IH] using tree_ops_ind. intros Ht x Hx.
  apply subterms_inv in Hx. destruct Hx as [->|(c & Hc & Hx)]; [assumption|].
  apply (IH c Hc); [|exact Hx]. apply (Hcl _ Ht); exact Hc.
Qed.

Lemma concat_rev_map : forall (f : tree -> list tree) l,
  concat (rev (map f l)) = flat_map f (rev l).
Proof.
  intros. rewrite <- map_rev. rewrite flat_map_concat_map. reflexivity.
Qed.
