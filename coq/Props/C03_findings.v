(* C03, two defects of the kind "the expansion raises on a valid expression".  (1) is repaired in /repo
   (commit e01964a): [lower_curl3] below is the lowering of the tree before that commit, and the repaired
   lowering of the witness is among the traced obligations (py/props/C03.py, rule "curl_list"); (2) is open:

   (1) curl-literal-component: LowerCompoundAlgebra.curl computes a[j].dx(i) component by component.
       For a list tensor, a[j] is simplified to the j-th entry; if that entry is a literal, `.dx`
       (Grad.__new__ -> find_geometric_dimension) raises, although curl(a) is a valid expression
       (div, grad, nabla_grad of the same vector are lowered without error).
   (2) abs-free-index: the Abs rule of GenericDerivativeRuleset builds sign(Real(f)) * df, and sign()
       builds conditions eq(f,0), lt(f,0), which UFL only accepts for operands WITHOUT free indices:
       differentiating |v[i]| * u[i] raises "Expecting scalar arguments.".

   The models below are faithful to the failure conditions; *_refuted exhibit the witnesses (replayed
   on the real code by py/props/C03.py on every run), *_partial are the strongest statements that
   hold: outside the failing class the rule succeeds and its value is the exact derivative. *)
Require Import UFLV.Core.Den.

(* does the expression mention a terminal living on a mesh (find_geometric_dimension succeeds) *)
Fixpoint has_domain (e : expr) : bool :=
  match e with
  | Zero _ _ | IntV _ | RealV _ _ | CplxV _ _ _ _ | RatV _ _ | Identity _ | PermSym _ => false
  | Term _ _ _ => true
  | Sum a b | Product a b | Division a b | Power a b | MinV a b | MaxV a b | Atan2 a b
  | Bessel _ a b | Outer a b | Inner a b | Dot a b | Cross a b => has_domain a || has_domain b
  | Abs a | Conj a | Real a | Imag a | Indexed a _ | IndexSum a _ _ | ComponentTensor a _
  | Math _ a | Vari a _ | Restricted _ a | Grad a _ | RefGrad a _ | Div a _ | NablaGrad a _
  | NablaDiv a _ | Curl a | RefValue a _ | Transposed a | Perp a | Trace a | Determinant a
  | Inverse a | Cofactor a | Deviatoric a | Skew a | Sym a => has_domain a
  | ListTensor es => (fix any (l : list expr) := match l with [] => false | x :: t => has_domain x || any t end) es
  | Conditional c t f => cond_domain c || has_domain t || has_domain f
  end
with cond_domain (c : cond) : bool :=
  match c with
  | Cmp _ a b => has_domain a || has_domain b
  | AndC a b | OrC a b => cond_domain a || cond_domain b
  | NotC a => cond_domain a
  end.

(* a[j] for a fixed index: list tensors are indexed at construction time *)
Definition getitem (a : expr) (j : nat) : expr :=
  match a with
  | ListTensor es => nth j es (Zero [] [])
  | _ => Indexed a [Fixed j]
  end.

(* e.dx(i): Grad.__new__ needs the geometric dimension of its operand *)
Definition dx (g : nat) (e : expr) (i : nat) : option expr :=
  if has_domain e then Some (Indexed (Grad e g) [Fixed i]) else None.

Definition curl_comp (g : nat) (a : expr) (i j : nat) : option expr :=
  match dx g (getitem a j) i, dx g (getitem a i) j with
  | Some p, Some q => Some (Sum p (Product (IntV (-1)) q))
  | _, _ => None
  end.

(* LowerCompoundAlgebra.curl for a.ufl_shape == (3,) *)
Definition lower_curl3 (a : expr) : option expr :=
  match curl_comp 3 a 1 2, curl_comp 3 a 2 0, curl_comp 3 a 0 1 with
  | Some c0, Some c1, Some c2 => Some (ListTensor [c0; c1; c2])
  | _, _, _ => None
  end.

Definition wit_curl : expr := ListTensor [Term 0 0 []; IntV 0; Term 0 1 []].

Theorem C03_curl_literal_component_refuted :
  exists a, shape a = [3] /\ has_domain a = true /\ lower_curl3 a = None.
Proof. exists wit_curl. repeat split; reflexivity. Qed.

(* conditions only accept operands without shape and without free indices *)
Definition true_scalar (e : expr) : bool :=
  match shape e, fidx e with [], [] => true | _, _ => false end.
Definition mk_cmp (op : cmpop) (a b : expr) : option cond :=
  if true_scalar a && true_scalar b then Some (Cmp op a b) else None.
(* ufl.operators.sign *)
Definition mk_sign (f : expr) : option expr :=
  match mk_cmp CEQ f (IntV 0), mk_cmp CLT f (IntV 0) with
  | Some c0, Some c1 => Some (Conditional c0 (IntV 0) (Conditional c1 (IntV (-1)) (IntV 1)))
  | _, _ => None
  end.
(* the Abs rule: sign(Real(f)) * df *)
Definition abs_rule (f df : expr) : option expr :=
  match mk_sign (Real f) with Some sg => Some (Product sg df) | None => None end.

Definition wit_abs : expr := Indexed (Term 0 0 [3]) [Free 0].

Theorem C03_abs_free_index_refuted :
  exists f, shape f = [] /\ (forall df, abs_rule f df = None).
Proof. exists wit_abs. split; [reflexivity|]. intros df. reflexivity. Qed.

Section Partial.
Variable A : ualg.
Add Field AfC03f : (kfield A).
Open Scope K_scope.
Variable env : side -> nat -> nat -> list nat -> A.
Variable D DX : nat -> A -> A.
Variable ki : A.
Notation den := (@den A env D DX ki).

Lemma den_getitem_eq s rho a j : den s rho (getitem a j) [] = den s rho a [j].
Proof.
  (* outside list tensors [getitem] builds the Indexed node, whose value this is by definition *)
  assert (E : den s rho (Indexed a [Fixed j]) [] = den s rho a [j]) by reflexivity.
  destruct a; try exact E. clear E. cbn [getitem Den.den].
  revert j. induction es as [|x t IH]; intros [|j]; try reflexivity. apply IH.
Qed.

(* outside the failing class (every component lives on the mesh) the lowering succeeds and denotes curl *)
Theorem C03_curl_partial : forall a,
  shape a = [3] ->
  (forall j, j < 3 -> has_domain (getitem a j) = true) ->
  exists e, lower_curl3 a = Some e /\
            forall s rho i, i < 3 -> den s rho e [i] = den s rho (Curl a) [i].
Proof.
  intros a Hs Hd.
  pose proof (Hd 0 ltac:(lia)) as H0. pose proof (Hd 1 ltac:(lia)) as H1. pose proof (Hd 2 ltac:(lia)) as H2.
  unfold lower_curl3, curl_comp, dx. rewrite H0, H1, H2.
  eexists. split; [reflexivity|].
  intros s rho i Hi. cbn [Den.den]. rewrite Hs.
  destruct i as [|[|[|i]]]; try lia; cbn [Nat.add Nat.modulo Nat.divmod fst snd Nat.sub map idxval split_last removelast last];
    rewrite !den_getitem_eq; cbn [of_Z of_pos]; ring.
Qed.

(* outside the failing class (operand without free indices) the Abs rule succeeds and, when D j is a
   derivation with D |x| = sign(re x) * D x, denotes the derivative of |f| *)
Definition ksign (x : A) : A :=
  kcond (bcmp CEQ (kre x) (of_Z 0)) (of_Z 0) (kcond (bcmp CLT (kre x) (of_Z 0)) (of_Z (-1)) (of_Z 1)).
Theorem C03_abs_partial : forall f df j,
  shape f = [] -> fidx f = [] ->
  (forall x, D j (kabs x) = ksign x * D j x) ->
  exists e, abs_rule f df = Some e /\
            forall s rho, den s rho df [] = D j (den s rho f []) ->
                          den s rho e [] = D j (den s rho (Abs f) []).
Proof.
  intros f df j Hs Hf Habs. unfold abs_rule, mk_sign, mk_cmp, true_scalar. cbn [shape fidx]. rewrite Hs, Hf.
  cbn [andb]. eexists. split; [reflexivity|].
  intros s rho Hdf. cbn [Den.den Den.denc]. rewrite Hdf, Habs. reflexivity.
Qed.
End Partial.

Print Assumptions C03_curl_literal_component_refuted.
Print Assumptions C03_abs_free_index_refuted.
Print Assumptions C03_curl_partial.
Print Assumptions C03_abs_partial.
