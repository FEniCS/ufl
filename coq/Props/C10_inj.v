(* C10: every relabelling that is injective on the indices of e (and maps them to indices) is safe
   for e; hence renumber_indices -- which builds such a map -- preserves the value of every
   expression of the fragment, hygienic or not (C10_renumber_injective). *)
Require Import UFLV.Core.Facts UFLV.Props.C10_model UFLV.Props.C10_lemmas UFLV.Props.C10_thm.
Import ListNotations.

Definition inj_on (m : imap) (l : list nat) : Prop :=
  (forall i, In i l -> is_free (sub m (Free i)) = true) /\
  (forall i j, In i l -> In j l -> sub m (Free i) = sub m (Free j) -> i = j).

Lemma idx_eqb_eq x y : idx_eqb x y = true -> x = y.
Proof. destruct x, y; cbn; intros H; try discriminate; apply Nat.eqb_eq in H; congruence. Qed.

Lemma dv_aidx e : incl (dv e) (aidx e).
Proof.
  induction e as [e IH] using children_ind. intros j Hj. destruct (is_plain e) eqn:Hp.
  - rewrite dv_plain, efold_app, in_flat_map in Hj by exact Hp. destruct Hj as (a & Ha & Hj).
    rewrite aidx_plain, efold_app, in_flat_map by exact Hp. exists a. split; [exact Ha|apply (IH a Ha j Hj)].
  - destruct e; try discriminate Hp; cbn [dv aidx efold] in *; rewrite ?app_nil_r in Hj.
    + destruct Hj.
    + rewrite in_app_iff in *. destruct Hj as [Hj|Hj]; [left; apply (IH e (or_introl eq_refl) j Hj)|right; exact Hj].
    + right. apply (IH e (or_introl eq_refl) j Hj).
    + apply in_or_app. right. apply (IH e (or_introl eq_refl) j Hj).
Qed.

Lemma binder_ok_inj m l scope i : inj_on m l -> In i l -> incl scope l -> binder_ok m scope i = true.
Proof.
  intros [Hf Hi] Hil Hsc. unfold binder_ok. rewrite (Hf i Hil). cbn [andb]. apply forallb_forall. intros j Hj.
  destruct (Nat.eqb j i) eqn:E; [reflexivity|]. cbn [orb].
  destruct (idx_eqb (sub m (Free j)) (sub m (Free i))) eqn:E2; [|reflexivity].
  apply idx_eqb_eq in E2. apply Hi in E2; [|apply Hsc; exact Hj|exact Hil].
  subst j. rewrite Nat.eqb_refl in E. discriminate.
Qed.

Lemma inj_safe m l : inj_on m l -> forall e, incl (aidx e) l -> safe m e = true.
Proof.
  intros Hinj. induction e as [e IH] using children_ind. intros Hl. destruct (is_plain e) eqn:Hp.
  - rewrite safe_plain, efold_andb, forallb_forall by exact Hp. intros a Ha. apply (IH a Ha).
    intros j Hj. apply Hl. rewrite aidx_plain, efold_app, in_flat_map by exact Hp. exists a; auto.
  - destruct e; try discriminate Hp; cbn [safe efold aidx] in *; rewrite ?andb_true_r.
    + reflexivity.
    + apply (IH e (or_introl eq_refl)). intros j Hj. apply Hl, in_or_app. left. exact Hj.
    + apply andb_true_intro. split.
      * apply (binder_ok_inj m l); [exact Hinj|apply Hl; left; reflexivity|].
        intros j Hj. apply Hl. right. apply dv_aidx, Hj.
      * apply (IH e (or_introl eq_refl)). intros j Hj. apply Hl. right. exact Hj.
    + apply andb_true_intro. split.
      * apply forallb_forall. intros p Hp'.
        apply (binder_ok_inj m l); [exact Hinj|apply Hl, in_or_app; left; exact Hp'|].
        intros j Hj. apply Hl. rewrite in_app_iff in *. destruct Hj as [Hj|Hj]; [left; exact Hj|right].
        apply dv_aidx, Hj.
      * apply (IH e (or_introl eq_refl)). intros j Hj. apply Hl, in_or_app. right. exact Hj.
Qed.

Section Ren.
Variable A : ualg.
Variable env : side -> nat -> nat -> list nat -> A.
Variables D DX : nat -> A -> A.
Variable ki : A.
Notation DEN := (@den A env D DX ki).

(* renumbering with ANY map that is injective on the indices of e preserves the value of every
   valid component, up to the correspondingly renamed valuation -- no hygiene assumption *)
Theorem C10_renumber_injective m e e' :
  inj_on m (aidx e) -> irep m e = Some e' ->
  forall s rho c, rk e (length c) = true ->
  DEN s rho e' c = DEN s (fun i => idxval rho (sub m (Free i))) e c.
Proof.
  intros Hinj Hm. apply (C10_renumber A env D DX ki m e e'); [|exact Hm].
  apply (inj_safe m (aidx e) Hinj e). intros j Hj; exact Hj.
Qed.
End Ren.

Print Assumptions C10_renumber_injective.
