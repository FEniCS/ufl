(* C02 / C04: the tactics of the generated obligations  den(result) c = G (den F c).

   A generated file states the obligations of its cases in a Section over the components of an arbitrary
   UFL algebra A, with the laws of a derivation as a Record [deriv_laws] and the identities of the function
   symbols as hypotheses (py/C02_common.py).  The operations are Section variables there, so the tactics
   below cannot name them: they read them off the goal ([den A env Dx DX ..], A unfolded to its
   constructor: ops_of_goal) and get the hypotheses and laws of the Section through hooks that the file
   redefines:
     ders       the two derivations, ((G, GL, G_env, varG), (H, HL, H_env, varH))
     dder d L   Derivation d, from L : deriv_laws d
     dlaw d L t the law of L for the head symbol of t (not a ring operation), at its arguments
     fact n     the hypothesis or lemma of the Section that the name n (below) stands for
     fn_unify   coqgen's unify1.
   A proof is  dprove  or  dprove_dx:  both sides are normalised; the specification side G t is replaced by
   its image t', through the equation G t = t' that dpush builds in one traversal of t; Dx is distributed
   over the ring operations (dprove_dx, cases with spatial derivatives); the goal is closed with ring /
   field, using the identities of the algebra only if needed (dfin). *)
Require Export UFLV.Core.Tac.

(* How a derivation acts on a sum, difference, product or opposite whose arguments have known images.  An
   argument that it sends to 0 (a constant of the derivation) contributes no term, so that the image of a
   traced expression is built without the zero summands that Leibniz' rule leaves behind. *)

Section Push.
Variable A : ualg.
Add Field PushF : (kfield A).
Variable d : A -> A.
Hypothesis D : Derivation d.
Open Scope K_scope.

Lemma p_add x y x' y' : d x = x' -> d y = y' -> d (x + y) = x' + y'.
Proof. intros <- <-. apply (d_add A d D). Qed.
Lemma p_add_l x y y' : d x = k0 -> d y = y' -> d (x + y) = y'.
Proof. intros p <-. rewrite (d_add A d D), p. ring. Qed.
Lemma p_add_r x y x' : d x = x' -> d y = k0 -> d (x + y) = x'.
Proof. intros <- q. rewrite (d_add A d D), q. ring. Qed.

Lemma p_sub x y x' y' : d x = x' -> d y = y' -> d (x - y) = x' - y'.
Proof. intros <- <-. apply d_sub, D. Qed.
Lemma p_sub_l x y y' : d x = k0 -> d y = y' -> d (x - y) = - y'.
Proof. intros p <-. rewrite (d_sub A d _ _ D), p. ring. Qed.
Lemma p_sub_r x y x' : d x = x' -> d y = k0 -> d (x - y) = x'.
Proof. intros <- q. rewrite (d_sub A d _ _ D), q. ring. Qed.
Lemma p_sub_0 x y : d x = k0 -> d y = k0 -> d (x - y) = k0.
Proof. intros p q. rewrite (d_sub A d _ _ D), p, q. ring. Qed.

Lemma p_opp x x' : d x = x' -> d (- x) = - x'.
Proof. intros <-. apply d_opp, D. Qed.
Lemma p_opp_0 x : d x = k0 -> d (- x) = k0.
Proof. intros p. rewrite (d_opp A d _ D), p. ring. Qed.

Lemma p_mul x y x' y' : d x = x' -> d y = y' -> d (x * y) = x' * y + x * y'.
Proof. intros <- <-. apply (d_mul A d D). Qed.
Lemma p_mul_l x y y' : d x = k0 -> d y = y' -> d (x * y) = x * y'.
Proof. intros p <-. rewrite (d_mul A d D), p. ring. Qed.
Lemma p_mul_r x y x' : d x = x' -> d y = k0 -> d (x * y) = x' * y.
Proof. intros <- q. rewrite (d_mul A d D), q. ring. Qed.
Lemma p_mul_0 x y : d x = k0 -> d y = k0 -> d (x * y) = k0.
Proof. intros p q. rewrite (d_mul A d D), p, q. ring. Qed.

(* a chain rule  d (f x) = d x * c  or  c * d x  at a constant x *)
Lemma mul_0_l (c : A) : k0 * c = k0. Proof. ring. Qed.
Lemma mul_0_r (c : A) : c * k0 = k0. Proof. ring. Qed.

End Push.

(* the hooks, and the names of the hypotheses and Dx lemmas that [fact] hands over *)
Inductive fact_name :=
  char0_ | tan_id_ | tanh_id_ | cond_sel_ | bj_refl_ | by_refl_ | bi_refl_ | bk_refl_
| conj_zero_ | conj_one_ | conj_add_ | conj_mul_ | conj_opp_ | conj_sub_ | re_zero_ | im_zero_
| Dx_zero_ | Dx_one_ | Dx_add_ | Dx_mul_ | Dx_opp_ | Dx_sub_.
Ltac ders := fail "ders".
Ltac dder d L := fail "dder".
Ltac dlaw d L t := fail "dlaw".
Ltac fact n := fail "fact".
Ltac fn_unify := fail "fn_unify".

(* O = (A, a, env, Dx, DX) with a the constructor form of A; every tactic that needs operations opens it
   with a pattern [Build_ualg _ ?z0 ?z1 ?add ...]: 26 positional slots in the order of the fields of
   [ualg] (Core/Alg.v) *)
Ltac ops_of_goal :=
  lazymatch goal with
  | |- @den ?A ?env ?Dx ?DX _ _ _ _ _ = _ => let a := eval hnf in A in constr:((A, a, env, Dx, DX))
  end.

(* ---- the image of a normal form under a derivation ---- *)

(* The closing chain rewrites below conj, re, im, Dx, DX and cond_ (also the one of max_ / min_), and inside
   a term, what [inert] excludes.  A term with a factor 0 is left out only where neither is the case (m true
   and the other factor inert): the identities a case rests on are then those it needs with the term. *)
Ltac below O m t :=
  lazymatch O with
  | (_, Build_ualg _ _ _ _ _ _ _ _ _ _ ?conj ?re ?im _ _ _ _ _ _ _ _ _ _ ?cond_ ?min_ ?max_, _, ?Dx, ?DX) =>
  lazymatch t with
  | conj _ => constr:(false) | re _ => constr:(false) | im _ => constr:(false)
  | Dx _ _ => constr:(false) | DX _ _ => constr:(false)
  | cond_ _ _ _ => constr:(false) | max_ _ _ => constr:(false) | min_ _ _ => constr:(false)
  | _ => m
  end end.
Ltac inert O X :=
  lazymatch O with
  | (_, Build_ualg _ ?z0 ?z1 ?add ?mul ?sub ?opp _ _ _ ?conj ?re ?im _ ?fn _ _ ?bessel _ _ _ _ _ ?cond_ _ _, _, ?Dx, _) =>
  lazymatch X with
  | context [conj z0] => constr:(false) | context [conj z1] => constr:(false)
  | context [conj (add _ _)] => constr:(false) | context [conj (mul _ _)] => constr:(false)
  | context [conj (opp _)] => constr:(false) | context [conj (sub _ _)] => constr:(false)
  | context [Dx _ z0] => constr:(false) | context [Dx _ z1] => constr:(false)
  | context [Dx _ (add _ _)] => constr:(false) | context [Dx _ (mul _ _)] => constr:(false)
  | context [Dx _ (opp _)] => constr:(false) | context [Dx _ (sub _ _)] => constr:(false)
  | context [re z0] => constr:(false) | context [im z0] => constr:(false)
  | context [cond_ _ _ _] => constr:(false) | context [bessel _ _ _] => constr:(false)
  | context [fn FTan _] => constr:(false) | context [fn FTanh _] => constr:(false)
  | _ => constr:(true)
  end end.
Ltac isz z0 m x :=
  lazymatch m with
  | true => lazymatch x with z0 => constr:(true) | _ => constr:(false) end
  | _ => constr:(false)
  end.
Ltac drops O z0 m x Y := lazymatch isz z0 m x with true => inert O Y | _ => constr:(false) end.

(* a terminal: the hypothesis of the case about it, its right-hand side normalised *)
Ltac dleaf z0 d E var s a i c k :=
  lazymatch goal with
  | Hz : forall s' c', var s' a i c' = z0 |- _ => k constr:(eq_trans (E s a i c) (Hz s c)) z0
  | Hv : forall s', var s' a i c = @?r s' |- _ =>
      let v := eval vm_compute in (r s) in
      k constr:(eq_trans (E s a i c) (Hv s <: var s a i c = v)) v
  end.

(* [dpush O d L E var m t k]: t is a normal form of [den], L : deriv_laws d, E and var say what d is on
   terminals (G_env, varG); calls k with a proof of d t = t' and with t', which is free of d.  A terminal has
   the image its case hypothesis gives; a ring operation the image the lemmas above give it; any other
   symbol the image its law gives, in which the arguments that the law leaves under d are replaced in turn
   (dcong: the law's right-hand side r is abstracted over d u, and u's image put in). *)
Ltac dpush O d L E var m t k :=
  lazymatch O with
  | (?A, Build_ualg _ ?z0 ?z1 ?add ?mul ?sub ?opp _ _ _ _ _ _ _ _ _ _ _ _ _ _ _ _ _ _ _, ?env, _, _) =>
  lazymatch t with
  | env ?s ?a ?i ?c => dleaf z0 d E var s a i c k
  | add ?x ?y => dpush O d L E var m x ltac:(fun p x' => dpush O d L E var m y ltac:(fun q y' =>
      let D := dder d L in
      lazymatch isz z0 m x' with
      | true => k constr:(p_add_l A d D x y y' p q) y'
      | _ => lazymatch isz z0 m y' with
             | true => k constr:(p_add_r A d D x y x' p q) x'
             | _ => k constr:(p_add A d D x y x' y' p q) constr:(add x' y')
             end
      end))
  | sub ?x ?y => dpush O d L E var m x ltac:(fun p x' => dpush O d L E var m y ltac:(fun q y' =>
      let D := dder d L in
      let zx := isz z0 m x' in let zy := isz z0 m y' in
      lazymatch constr:((zx, zy)) with
      | (true, true) => k constr:(p_sub_0 A d D x y p q) z0
      | (true, _) => k constr:(p_sub_l A d D x y y' p q) constr:(opp y')
      | (_, true) => k constr:(p_sub_r A d D x y x' p q) x'
      | _ => k constr:(p_sub A d D x y x' y' p q) constr:(sub x' y')
      end))
  | mul ?x ?y => dpush O d L E var m x ltac:(fun p x' => dpush O d L E var m y ltac:(fun q y' =>
      let D := dder d L in
      let zx := drops O z0 m x' y in let zy := drops O z0 m y' x in
      lazymatch constr:((zx, zy)) with
      | (true, true) => k constr:(p_mul_0 A d D x y p q) z0
      | (true, _) => k constr:(p_mul_l A d D x y y' p q) constr:(mul x y')
      | (_, true) => k constr:(p_mul_r A d D x y x' p q) constr:(mul x' y)
      | _ => k constr:(p_mul A d D x y x' y' p q) constr:(add (mul x' y) (mul x y'))
      end))
  | opp ?x => dpush O d L E var m x ltac:(fun p x' =>
      let D := dder d L in
      lazymatch isz z0 m x' with
      | true => k constr:(p_opp_0 A d D x p) z0
      | _ => k constr:(p_opp A d D x x' p) constr:(opp x')
      end)
  | _ =>
      let e := dlaw d L t in
      let m' := below O m t in
      lazymatch type of e with _ = ?r => dcong O d L E var m m' t e r k end
  end end
with dcong O d L E var m m' t e r k :=
  lazymatch r with
  | context [d ?u] =>
      dpush O d L E var m' u ltac:(fun p u' =>
        lazymatch (eval pattern (d u) in r) with
        | ?f _ =>
            let r' := eval cbv beta in (f u') in
            dcong O d L E var m m' t constr:(@eq_trans _ (d t) r r' e (@f_equal _ _ f (d u) u' p)) r' k
        end)
  | _ =>
    lazymatch O with
    | (?A, Build_ualg _ ?z0 _ _ ?mul _ _ _ _ _ ?conj ?re ?im _ _ _ _ _ _ _ _ _ _ _ _ _, _, ?Dx, _) =>
    lazymatch r with
    | conj z0 => let h := fact conj_zero_ in k constr:(@eq_trans _ (d t) r z0 e h) z0
    | re z0 => let h := fact re_zero_ in k constr:(@eq_trans _ (d t) r z0 e h) z0
    | im z0 => let h := fact im_zero_ in k constr:(@eq_trans _ (d t) r z0 e h) z0
    | Dx ?j z0 => let h := fact Dx_zero_ in k constr:(@eq_trans _ (d t) r z0 e (h j)) z0
    | mul z0 ?c =>
        lazymatch drops O z0 m z0 c with
        | true => k constr:(@eq_trans _ (d t) r z0 e (mul_0_l A c)) z0
        | _ => k e r
        end
    | mul ?c z0 =>
        lazymatch drops O z0 m z0 c with
        | true => k constr:(@eq_trans _ (d t) r z0 e (mul_0_r A c)) z0
        | _ => k e r
        end
    | _ => k e r
    end end
  end.

(* the three forms of a specification side: G t, H (G t) (the image of G t normalised before H is pushed),
   op (G t) (H u) *)
Ltac dcase O :=
  repeat match goal with Hn : @den _ _ _ _ _ _ _ _ _ <> _ |- _ => norm_hyp Hn end;
  norm_goal;
  lazymatch ders with
  | ((?G, ?GL, ?GE, ?vG), (?H, ?HL, ?HE, ?vH)) =>
  lazymatch goal with
  | |- ?l = H (G ?t) =>
      dpush O G GL GE vG true t ltac:(fun p t' =>
        let u := eval vm_compute in t' in
        dpush O H HL HE vH true u ltac:(fun q u' =>
          refine (@eq_trans _ l u' _ _ (eq_sym (eq_trans (f_equal H p <: H (G t) = H u) q)))))
  | |- ?l = G ?t =>
      dpush O G GL GE vG true t ltac:(fun p t' => refine (@eq_trans _ l t' _ _ (eq_sym p)))
  | |- ?l = ?op (G ?t) (H ?u) =>
      dpush O G GL GE vG true t ltac:(fun p t' => dpush O H HL HE vH true u ltac:(fun q u' =>
        refine (@eq_trans _ l (op t' u') _ _ (eq_sym (f_equal2 op p q)))))
  end end.

(* ---- closing ---- *)

(* conj and Dx are distributed over the ring operations, conj, re, im, Dx of 0 are 0; an instance is looked
   for in the (normalised) goal before its rule is used: a [rewrite] that finds none has searched the
   whole goal with every law *)
Ltac zero1 O :=
  lazymatch O with
  | (_, Build_ualg _ ?z0 _ _ _ _ _ _ _ _ ?conj ?re ?im _ _ _ _ _ _ _ _ _ _ _ _ _, _, ?Dx, _) =>
  lazymatch goal with
  | |- context [conj z0] => let h := fact conj_zero_ in rewrite h
  | |- context [re z0] => let h := fact re_zero_ in rewrite h
  | |- context [im z0] => let h := fact im_zero_ in rewrite h
  | |- context [Dx ?j z0] => let h := fact Dx_zero_ in rewrite (h j)
  end end.
Ltac dx1 O :=
  lazymatch O with
  | (_, Build_ualg _ _ ?z1 ?add ?mul ?sub ?opp _ _ _ _ _ _ _ _ _ _ _ _ _ _ _ _ _ _ _, _, ?Dx, _) =>
  lazymatch goal with
  | |- context [Dx ?j z1] => let h := fact Dx_one_ in rewrite (h j)
  | |- context [Dx ?j (add ?x ?y)] => let h := fact Dx_add_ in rewrite (h j x y)
  | |- context [Dx ?j (mul ?x ?y)] => let h := fact Dx_mul_ in rewrite (h j x y)
  | |- context [Dx ?j (opp ?x)] => let h := fact Dx_opp_ in rewrite (h j x)
  | |- context [Dx ?j (sub ?x ?y)] => let h := fact Dx_sub_ in rewrite (h j x y)
  end end.
Ltac conj1 O :=
  lazymatch O with
  | (_, Build_ualg _ ?z0 ?z1 ?add ?mul ?sub ?opp _ _ _ ?conj _ _ _ _ _ _ _ _ _ _ _ _ _ _ _, _, ?Dx, _) =>
  lazymatch goal with
  | |- context [conj z0] => let h := fact conj_zero_ in rewrite h
  | |- context [conj z1] => let h := fact conj_one_ in rewrite h
  | |- context [conj (add ?x ?y)] => let h := fact conj_add_ in rewrite (h x y)
  | |- context [conj (mul ?x ?y)] => let h := fact conj_mul_ in rewrite (h x y)
  | |- context [conj (opp ?x)] => let h := fact conj_opp_ in rewrite (h x)
  | |- context [conj (sub ?x ?y)] => let h := fact conj_sub_ in rewrite (h x y)
  | |- context [Dx ?j z0] => let h := fact Dx_zero_ in rewrite (h j)
  end end.
Ltac zeros O := repeat zero1 O.
Ltac dxpush O := repeat first [ zero1 O | dx1 O ].
Ltac cpush O := repeat conj1 O.

(* the identities of tan, tanh and the Bessel functions are used right-to-left on the specification side;
   cond_ b x y is written with the indicator cond_ b 1 0 *)
Ltac ids O :=
  lazymatch O with
  | (_, Build_ualg _ _ _ _ _ _ _ _ _ _ _ _ _ _ ?fn _ _ ?bessel _ _ _ _ _ _ _ _, _, _, _) =>
  try (lazymatch goal with |- context [fn FTan _] => idtac end;
       let h := fact tan_id_ in repeat rewrite <- h);
  try (lazymatch goal with |- context [fn FTanh _] => idtac end;
       let h := fact tanh_id_ in repeat rewrite <- h);
  try (lazymatch goal with |- context [bessel _ _ _] => idtac end;
       let bj := fact bj_refl_ in let by_ := fact by_refl_ in let bi := fact bi_refl_ in let bk := fact bk_refl_ in
       rewrite ?bj, ?by_, ?bi, ?bk)
  end.
Ltac condsel O :=
  lazymatch O with
  | (_, Build_ualg _ ?z0 ?z1 _ _ _ _ _ _ _ _ _ _ _ _ _ _ _ _ _ _ _ _ ?cond_ _ _, _, _, _) =>
  let cond_sel := fact cond_sel_ in
  repeat match goal with
  | |- context [cond_ ?b ?x ?y] =>
      lazymatch constr:((x, y)) with (z1, z0) => fail | _ => idtac end;
      rewrite (cond_sel b x y)
  end end.

(* side conditions X <> 0 of field: a closed numeral X is the image of the positive number it denotes; *)
Ltac znum O X :=
  lazymatch O with
  | (_, Build_ualg _ ?z0 ?z1 ?add ?mul ?sub ?opp _ _ _ _ _ _ _ _ _ _ _ _ _ _ _ _ _ _ _, _, _, _) =>
  lazymatch X with
  | z0 => constr:(0%Z)
  | z1 => constr:(1%Z)
  | add ?a ?b => let u := znum O a in let v := znum O b in constr:((u + v)%Z)
  | mul ?a ?b => let u := znum O a in let v := znum O b in constr:((u * v)%Z)
  | sub ?a ?b => let u := znum O a in let v := znum O b in constr:((u - v)%Z)
  | opp ?a => let u := znum O a in constr:((- u)%Z)
  end end.
Ltac nz_num O :=
  lazymatch goal with
  | |- ?X <> _ =>
      let n := znum O X in
      lazymatch (eval vm_compute in n) with Zpos ?p => let char0 := fact char0_ in nz_char0_p char0 p end
  end.
Ltac splits := repeat match goal with |- _ /\ _ => split end.
(* otherwise X is, for a hypothesis Y <> 0: equal to Y by field; a factor of Y; f x with Y = f y and x = y;
   a small multiple of Y ([nz_scaled]: by 2, 3, 4 or 6, a fixed list as in Core/Tac.v [nz_char0]) *)
Ltac nz_hyp_field O :=
  match goal with
  | Hn : ?Y <> ?z |- ?X <> ?z =>
      let E := fresh "E" in
      intro E; apply Hn;
      (transitivity X; [ first [ ring | field; splits; nz_num O ] | exact E ])
  end.
Ltac nz_factor :=
  match goal with
  | Hn : ?Y <> ?z |- ?X <> ?z => let E := fresh "E" in intro E; apply Hn; rewrite E; ring
  end.
Ltac nz_fn O :=
  lazymatch O with
  | (_, Build_ualg _ _ _ _ _ _ _ _ _ _ _ _ _ _ ?fn _ _ _ _ _ _ _ _ _ _ _, _, _, _) =>
  match goal with
  | Hn : fn ?f ?Y <> ?z |- fn ?f ?X <> ?z =>
      replace X with Y; [ exact Hn | first [ ring | field; splits; nz_num O ] ]
  end end.
Ltac nz_scaled_p O p :=
  lazymatch O with
  | (?A, Build_ualg _ _ _ _ _ _ _ ?div _ _ _ _ _ _ _ _ _ _ _ _ _ _ _ _ _ _, _, _, _) =>
  match goal with
  | Hn : ?Y <> ?z |- ?X <> ?z =>
      let d := eval vm_compute in (@of_pos A p) in
      let E := fresh "E" in
      intro E; apply Hn;
      (transitivity (div X d);
       [ field; splits; nz_num O | rewrite E; field; splits; nz_num O ])
  end end.
Ltac nz_scaled O :=
  first [ nz_scaled_p O 2%positive | nz_scaled_p O 3%positive | nz_scaled_p O 4%positive
        | nz_scaled_p O 6%positive ].
Ltac nzs O :=
  splits;
  first [ assumption | nz_from_hyps | nz_num O | nz_hyp_field O | nz_fn O | nz_factor | nz_scaled O ].

(* a normalised goal: ring; the field tactics can only help where there is a division *)
Ltac fld O :=
  lazymatch O with
  | (_, Build_ualg _ _ _ _ _ _ _ ?div _ _ _ _ _ _ _ _ _ _ _ _ _ _ _ _ _ _, _, _, _) =>
  lazymatch goal with |- context [div _ _] => field; nzs O end end.
Ltac ff O :=
  lazymatch O with
  | (_, Build_ualg _ _ _ _ _ _ _ ?div _ ?Fth _ _ _ _ _ _ _ _ _ _ _ _ _ _ _ _, _, _, _) =>
  lazymatch goal with |- context [div _ _] => first [ rewrite ?(Fdiv_def Fth); ring | field; nzs O ] end
  end.
Ltac fin0 O := first [ reflexivity | ring | ff O ].

(* Two applications of f in the goal whose arguments are not the same terms but are equal by [cl] are made
   the same term, so that ring takes them for one atom: f with one argument ([unify_arg] of Core/Tac.v), with
   two, and with a first argument (a kind, a condition, a comparison) that has to be the same and two to be
   made equal. *)
Ltac same2 f cl :=
  match goal with
  | |- context [f ?X ?Y] =>
      match goal with
      | |- context [f ?X' ?Y'] =>
          lazymatch constr:((X, Y)) with (X', Y') => fail | _ => idtac end;
          replace (f X Y) with (f X' Y') by (f_equal; cl)
      end
  end.
Ltac same3 f cl :=
  match goal with
  | |- context [f ?k ?X ?Y] =>
      match goal with
      | |- context [f k ?X' ?Y'] =>
          lazymatch constr:((X, Y)) with (X', Y') => fail | _ => idtac end;
          replace (f k X Y) with (f k X' Y') by (f_equal; cl)
      end
  end.

(* if ring fails because equal function symbols have arguments that are equal but not the same terms: *)
Ltac pow_unify O :=
  lazymatch O with
  | (_, Build_ualg _ _ _ _ _ _ _ _ _ _ _ ?re ?im _ _ ?pow ?atan2 ?bessel _ ?cmp _ _ _ ?cond_ _ _, _, _, _) =>
  first [ same2 pow ltac:(first [ ring | fld O ]) | same3 bessel ltac:(first [ ring | fld O ])
        | same2 atan2 ltac:(first [ ring | fld O ]) | unify_arg re ltac:(first [ ring | fld O ])
        | unify_arg im ltac:(first [ ring | fld O ]) | same3 cond_ ltac:(first [ ring | ff O ])
        | same3 cmp ltac:(first [ ring | fld O ]) ]
  end.
Ltac finu2 O := progress (repeat first [ fn_unify | pow_unify O ]); fin0 O.
Ltac finu O := tryif progress (repeat fn_unify) then first [ fin0 O | finu2 O ] else finu2 O.
Ltac fin O := first [ fin0 O | finu O ].

(* The identities of the algebra are used only if the goal does not close without them: first all of them,
   then the arguments made equal, then each identity with that.  An alternative is tried only if the steps
   it adds to one that has failed change the (normalised) goal. *)
Ltac nf_goal :=
  lazymatch goal with
  | |- ?L = ?R => let l := eval vm_compute in L in let r := eval vm_compute in R in constr:(l = r)
  end.
Ltac dfin O :=
  zeros O;
  first [ norm_goal; fin0 O
        | let g := nf_goal in
          ids O; dxpush O; norm_goal; condsel O; norm_goal; cpush O;
          lazymatch goal with |- g => fail | |- _ => fin0 O end
        | norm_goal; finu O
        | progress ids O; norm_goal; fin O
        | progress dxpush O; norm_goal; fin O
        | progress (ids O; condsel O); norm_goal; fin O
        | progress (ids O; dxpush O); norm_goal; fin O
        | norm_goal; progress cpush O; fin O
        | progress dxpush O; norm_goal; cpush O; fin O
        | ids O; norm_goal; condsel O; norm_goal; fin O
        | ids O; dxpush O; norm_goal; condsel O; norm_goal; cpush O; fin O ].

Ltac dprove := intros; let O := ops_of_goal in dcase O; dfin O.
Ltac dprove_dx := intros; let O := ops_of_goal in dcase O; dxpush O; dfin O.
