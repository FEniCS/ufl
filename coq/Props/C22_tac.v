(* C22 - the arithmetic of the generated block obligations.

   Once the algebra's operations are computed, a block obligation is an identity between polynomial
   expressions in which the zero-padded components have left zero terms, and conj and D_j applied to
   them.  It holds because the zero terms drop out ([zs]), where necessary after conj and D_j have been
   moved off the zeros and through the operations by the facts [holds r] (Section hypotheses of the
   generated files).  Rewriting with a fact costs one pass over the goal per redex; here the goal is
   reified to [cx], [ex] applies one fact exhaustively in one pass, and [loop] takes the facts in the
   order of [rank], always the first that has a redex, and records which it took: only those are asked
   for, so a proof rests on the hypotheses that rewriting in that order would use, and no others. *)
Require Import List Bool Ring Field_theory.
Require Import UFLV.Core.Tac.
Import ListNotations.

Section Norm.
Context {KT : Type}.
Variables (z0 z1 : KT) (add mul sub : KT -> KT -> KT) (opp : KT -> KT).
Hypothesis Rth : ring_theory z0 z1 add mul sub opp eq.
Add Ring c22ring : Rth.
Variables (div : KT -> KT -> KT) (conj : KT -> KT) (Dx : nat -> KT -> KT).

Inductive cx :=
| cV (a : KT) | c0 | c1
| cAdd (x y : cx) | cMul (x y : cx) | cSub (x y : cx) | cDiv (x y : cx)
| cOpp (x : cx) | cConj (x : cx) | cDx (j : nat) (x : cx).

Fixpoint ci (e : cx) : KT :=
  match e with
  | cV a => a | c0 => z0 | c1 => z1
  | cAdd x y => add (ci x) (ci y) | cMul x y => mul (ci x) (ci y)
  | cSub x y => sub (ci x) (ci y) | cDiv x y => div (ci x) (ci y)
  | cOpp x => opp (ci x) | cConj x => conj (ci x) | cDx j x => Dx j (ci x)
  end.

Inductive rule := rDZ | rCZ | rC1 | rCA | rCC | rCM | rCS | rCO | rCD.

Definition holds (r : rule) : Prop :=
  match r with
  | rDZ => forall j, Dx j z0 = z0
  | rCZ => conj z0 = z0
  | rC1 => conj z1 = z1
  | rCA => forall x y, conj (add x y) = add (conj x) (conj y)
  | rCC => forall x, conj (conj x) = x
  | rCM => forall x y, conj (mul x y) = mul (conj x) (conj y)
  | rCS => forall x y, conj (sub x y) = sub (conj x) (conj y)
  | rCO => forall x, conj (opp x) = opp (conj x)
  | rCD => forall x y, conj (div x y) = div (conj x) (conj y)
  end.

(* [conj e] with rule r applied as far as it goes, for e already normal w.r.t. r *)
Fixpoint push (r : rule) (e : cx) : cx :=
  match r, e with
  | rCZ, c0 => c0
  | rC1, c1 => c1
  | rCC, cConj x => x
  | rCA, cAdd x y => cAdd (push r x) (push r y)
  | rCM, cMul x y => cMul (push r x) (push r y)
  | rCS, cSub x y => cSub (push r x) (push r y)
  | rCD, cDiv x y => cDiv (push r x) (push r y)
  | rCO, cOpp x => cOpp (push r x)
  | _, _ => cConj e
  end.

Fixpoint ex (r : rule) (e : cx) : cx :=
  match e with
  | cAdd x y => cAdd (ex r x) (ex r y) | cMul x y => cMul (ex r x) (ex r y)
  | cSub x y => cSub (ex r x) (ex r y) | cDiv x y => cDiv (ex r x) (ex r y)
  | cOpp x => cOpp (ex r x)
  | cConj x => push r (ex r x)
  | cDx j x => match r, ex r x with rDZ, c0 => c0 | _, x' => cDx j x' end
  | _ => e
  end.

(* the rule that rewrites e at the root (there is at most one), and the first by [rank] that has a
   redex somewhere in e *)
Definition root (e : cx) : option rule :=
  match e with
  | cDx _ c0 => Some rDZ
  | cConj c0 => Some rCZ | cConj c1 => Some rC1 | cConj (cAdd _ _) => Some rCA
  | cConj (cConj _) => Some rCC | cConj (cMul _ _) => Some rCM | cConj (cSub _ _) => Some rCS
  | cConj (cOpp _) => Some rCO | cConj (cDiv _ _) => Some rCD
  | _ => None
  end.
Definition rank (r : rule) : nat :=
  match r with rDZ => 0 | rCZ => 1 | rC1 => 2 | rCA => 3 | rCC => 4 | rCM => 5 | rCS => 6 | rCO => 7 | rCD => 8 end.
Definition rmin (a b : option rule) : option rule :=
  match a, b with
  | None, c | c, None => c
  | Some p, Some q => if Nat.leb (rank p) (rank q) then a else b
  end.
Fixpoint first_redex (e : cx) : option rule :=
  rmin (root e)
    match e with
    | cAdd x y | cMul x y | cSub x y | cDiv x y => rmin (first_redex x) (first_redex y)
    | cOpp x | cConj x | cDx _ x => first_redex x
    | _ => None
    end.

Fixpoint loop (n : nat) (l r : cx) (used : list rule) : cx * cx * list rule :=
  match n with
  | 0 => (l, r, used)
  | S n => match rmin (first_redex l) (first_redex r) with
           | Some q => loop n (ex q l) (ex q r) (q :: used)
           | None => (l, r, used)
           end
  end.

Fixpoint allh (l : list rule) : Prop :=
  match l with [] => True | q :: l => holds q /\ allh l end.

Lemma push_ok r e : holds r -> ci (push r e) = conj (ci e).
Proof.
  intro H; induction e; destruct r; simpl; try reflexivity;
    rewrite ?IHe, ?IHe1, ?IHe2; symmetry; apply H.
Qed.

Lemma ex_ok r e : holds r -> ci (ex r e) = ci e.
Proof.
  intro H; induction e; simpl; rewrite ?push_ok by exact H; try congruence.
  destruct r, (ex _ e); simpl in *; rewrite <- IHe; try reflexivity; symmetry; apply H.
Qed.

(* x + 0, 0 * x, ... where a zero component was substituted; below conj, D_j and div (atoms for [ring])
   only if [deep] *)
Definition zadd x y := match x, y with c0, e | e, c0 => e | _, _ => cAdd x y end.
Definition zmul x y := match x, y with c0, _ | _, c0 => c0 | _, _ => cMul x y end.
Definition zsub x y := match y with c0 => x | _ => cSub x y end.
Definition zopp x := match x with c0 => c0 | _ => cOpp x end.
Fixpoint zs (deep : bool) (e : cx) : cx :=
  match e with
  | cAdd x y => zadd (zs deep x) (zs deep y) | cMul x y => zmul (zs deep x) (zs deep y)
  | cSub x y => zsub (zs deep x) (zs deep y) | cOpp x => zopp (zs deep x)
  | cDiv x y => if deep then cDiv (zs deep x) (zs deep y) else e
  | cConj x => if deep then cConj (zs deep x) else e
  | cDx j x => if deep then cDx j (zs deep x) else e
  | _ => e
  end.

Lemma zs_ok deep e : ci (zs deep e) = ci e.
Proof.
  induction e; simpl; try (destruct deep; simpl; congruence);
    rewrite <- ?IHe, <- ?IHe1, <- ?IHe2; destruct (zs _ e1), (zs _ e2) || destruct (zs _ e); simpl; try reflexivity; ring.
Qed.

Lemma c22_ring l r : ci (zs false l) = ci (zs false r) -> ci l = ci r.
Proof. now rewrite !zs_ok. Qed.

Lemma c22_eq n : forall l r used,
  (let p := loop n l r used in
   allh (snd p) /\ ci (zs true (fst (fst p))) = ci (zs true (snd (fst p)))) -> allh used /\ ci l = ci r.
Proof.
  induction n; intros l r used; cbn [loop].
  - cbn; rewrite !zs_ok; auto.
  - destruct (rmin _ _) as [q|]; [ | cbn; rewrite !zs_ok; now auto ].
    intros H; destruct (IHn _ _ _ H) as [[Hq Hused] E].
    now rewrite !ex_ok in E.
Qed.

Lemma c22_push n l r :
  (let p := loop n l r [] in
   allh (snd p) /\ ci (zs true (fst (fst p))) = ci (zs true (snd (fst p)))) -> ci l = ci r.
Proof. intro H; exact (proj2 (c22_eq n l r [] H)). Qed.

End Norm.

(* Closes L = R over the operations of the field theory Fth: both sides are reified; [ring] is tried once
   the zero terms are gone; failing that the facts about conj and D_j are applied (those used are taken
   from the context; 100 rounds are far more than operators are nested) and [close] has to finish. *)
Ltac c22_solve Fth conj Dx close :=
  lazymatch type of Fth with
  | field_theory ?z0 ?z1 ?add ?mul ?sub ?opp ?div _ _ =>
  let K := type of z0 in
  let is f g := match goal with _ => constr_eq f g end in
  (* The first clause makes every application to three or more arguments an atom, BEFORE [?f ?x ?y] can
     match it as a partial application (env s k id c).  So the operations must be given as Section
     variables: [kadd A x y] with record projections has three arguments and would be an atom. *)
  let rec go t :=
    match t with
    | _ _ _ _ => constr:(cV t)
    | ?f ?x ?y => let _ := is f add in let a := go x in let b := go y in constr:(cAdd a b)
    | ?f ?x ?y => let _ := is f mul in let a := go x in let b := go y in constr:(cMul a b)
    | ?f ?j ?x => let _ := is f Dx in let a := go x in constr:(cDx j a)
    | ?f ?x ?y => let _ := is f sub in let a := go x in let b := go y in constr:(cSub a b)
    | ?f ?x ?y => let _ := is f div in let a := go x in let b := go y in constr:(cDiv a b)
    | ?f ?x => let _ := is f conj in let a := go x in constr:(cConj a)
    | ?f ?x => let _ := is f opp in let a := go x in constr:(cOpp a)
    | _ => let _ := is t z0 in constr:(@c0 K)
    | _ => let _ := is t z1 in constr:(@c1 K)
    | _ => constr:(cV t)
    end in
  lazymatch goal with
  | |- ?L = ?R =>
      let l := go L in
      let r := go R in
      change (ci z0 z1 add mul sub opp div conj Dx l = ci z0 z1 add mul sub opp div conj Dx r);
      first [ apply (c22_ring z0 z1 add mul sub opp (F_R Fth)); vm_compute; first [ reflexivity | ring ]
            | apply (c22_push z0 z1 add mul sub opp (F_R Fth) div conj Dx 100); vm_compute;
              split; [ repeat split; assumption | close ] ]
  end
  end.

(* what is left after normalisation: syntactic equality, a polynomial identity, or one with divisions whose
   denominators are numerals (char0) *)
Ltac field_close char0 := first [ reflexivity | ring | field; nz_solve char0 ].

(* the nine facts as rewrite rules, in the order of [rank], one redex at a time: for operands [c22_solve]
   does not look into *)
Ltac c22_rw dz cz c1 ca cc cm cs co cd :=
  repeat (rewrite dz || rewrite cz || rewrite c1 || rewrite ca || rewrite cc
          || rewrite cm || rewrite cs || rewrite co || rewrite cd).

(* A block obligation: compute both sides; equal as they are, or by [c22_solve]; ring on the goal as it is
   and rewriting with the facts ([rw]) remain for goals of a form [c22_solve] does not know. *)
Ltac c22_close Fth conj Dx char0 rw :=
  norm_goal;
  first [ reflexivity | c22_solve Fth conj Dx ltac:(field_close char0) | ring | rw; field_close char0 ].
