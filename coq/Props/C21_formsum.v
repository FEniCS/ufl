(* C21, weighted sums of forms (FormSum): map_integrands / replace maps every component, drops the components
   that vanish and keeps the weight of every surviving component.

     fs_replace r l        the model: l is the list of (component, weight), r maps a component to its
                           image or to None when the image is zero
     C21_formsum_weights   every surviving pair carries the weight of a source component of which it is the image
     C21_formsum_order     the weights of the result are those of the surviving components, in the same order
     C21_formsum_value     the value sum_i w_i * val(c_i) of the result equals sum_i w_i * val(r c_i), where a
                           vanished component contributes 0: for ALL lists, weights and maps *)
Require Import UFLV.Core.Alg.

Section FormSum.
Variables C W : Type.
Variable r : C -> option C.

Fixpoint fs_replace (l : list (C * W)) : list (C * W) :=
  match l with
  | [] => []
  | (c, w) :: t => match r c with Some c' => (c', w) :: fs_replace t | None => fs_replace t end
  end.

Theorem C21_formsum_weights : forall l c' w,
  In (c', w) (fs_replace l) -> exists c, In (c, w) l /\ r c = Some c'.
Proof.
  induction l as [|[c0 w0] t IH]; intros c' w H; [destruct H|].
  cbn [fs_replace] in H. destruct (r c0) as [c0'|] eqn:E.
  - destruct H as [H|H].
    + inversion H; subst. exists c0. split; [left; reflexivity|exact E].
    + destruct (IH _ _ H) as [c [Hin Hr]]. exists c. split; [right; exact Hin|exact Hr].
  - destruct (IH _ _ H) as [c [Hin Hr]]. exists c. split; [right; exact Hin|exact Hr].
Qed.

Theorem C21_formsum_order : forall l,
  map snd (fs_replace l) = map snd (filter (fun p => match r (fst p) with Some _ => true | None => false end) l).
Proof.
  induction l as [|[c0 w0] t IH]; [reflexivity|]. cbn [fs_replace filter fst].
  destruct (r c0); cbn [map snd]; rewrite IH; reflexivity.
Qed.
End FormSum.

Section Value.
Variable A : ualg.
Add Field AfC21fs : (kfield A).
Open Scope K_scope.
Variable C : Type.
Variable r : C -> option C.
Variable val : C -> A.

Fixpoint fs_val (l : list (C * A)) : A :=
  match l with [] => k0 | (c, w) :: t => w * val c + fs_val t end.
Fixpoint fs_val_mapped (l : list (C * A)) : A :=
  match l with
  | [] => k0
  | (c, w) :: t => w * (match r c with Some c' => val c' | None => k0 end) + fs_val_mapped t
  end.

Theorem C21_formsum_value : forall l, fs_val (fs_replace C A r l) = fs_val_mapped l.
Proof.
  induction l as [|[c w] t IH]; [reflexivity|]. cbn [fs_replace fs_val fs_val_mapped].
  destruct (r c); cbn [fs_val]; rewrite IH; ring.
Qed.
End Value.

Print Assumptions C21_formsum_weights.
Print Assumptions C21_formsum_order.
Print Assumptions C21_formsum_value.
