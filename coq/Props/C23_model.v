(* C23, hand-written model (tie T3) of

     ufl/algorithms/comparison_checker.py : CheckComparisons   (complex mode)   = [check] / [checkc]
     ufl/algorithms/remove_complex_nodes.py : ComplexNodeRemoval (real mode)    = [remove] / [removec]

   over the frozen syntax of Core/Syntax.v, and the purely syntactic theorems about it (they hold for
   every constructor of [expr]):

     C23_reject, C23_reject_only : check e = None  <->  some ordering comparison / min / max anywhere
                                    in e has an operand whose nodetype is "complex"
     C23_wrap                    : in an accepted output every ordering comparison / min / max has
                                    operands of the form Real(.) or a real literal / Zero (what the
                                    constructor Real.__new__ returns)
     C23_remove_reject_iff       : remove e = None <-> e contains an Imag node or a complex literal
     C23_remove_clean            : the output of remove contains no Conj / Real / Imag / complex literal

   The semantic theorems (nodetype soundness, value preservation) are in C23_sound.v.

   [check] takes the variant of the analysis as parameters (cfn / cbs: which math functions / Bessel kinds
   are typed complex; cfn_of true = /repo, where ln/acos/asin/Bessel are aliases of sqrt; cfn_of false =
   the tree without that repair, where only sqrt is).  The model has ONE power rule; [fixp] only says
   which table entry the source must have for it (HPowerLit = /repo, which converts literal exponents
   only; HPower = without that repair).
   The tables [cc_rules fixp], [cc_aliases fixm], [cc_dispatch fixm], [rm_rules], [rm_dispatch] say which handler of
   the Python classes each case of the model implements; coq/Gen/C23_rules.v (regenerated from /repo on
   every run with `ast` and from the live MultiFunction dispatch tables) must prove them equal to
   what the source says. *)
Require Import UFLV.Core.Facts.
Require Import String.

(* nodetype values *)
Inductive ty := TReal | TComplex | TBool.
Definition is_complex (t : ty) : bool := match t with TComplex => true | _ => false end.
Definition is_real (t : ty) : bool := match t with TReal => true | _ => false end.

(* CheckComparisons.expr: complex iff some operand complex; complex if no operands *)
Definition join (ts : list ty) : ty :=
  match ts with
  | [] => TComplex
  | _ => if existsb is_complex ts then TComplex else TReal
  end.

(* CheckComparisons.terminal on `Term kind id shape` (ufl2coq.KINDS: 0 Coefficient, 1 Argument,
   2 Constant, >= 10 GeometricQuantity subclasses) *)
Definition term_ty (k : nat) : ty :=
  if Nat.eqb k 1 || Nat.leb 10 k then TReal else TComplex.

(* Real.__new__ : Zero -> Zero, RealValue -> the same literal, otherwise a Real node (the
   `a = a.ufl_operands[0]` rebinding for Conj/Real operands has no effect because __init__ receives
   the original argument) *)
Definition lit_real (e : expr) : bool :=
  match e with Zero _ _ | IntV _ | RealV _ _ | RatV _ _ => true | _ => false end.
Definition mk_real (a : expr) : expr := if lit_real a then a else Real a.

(* power: `float(exponent)` succeeds and is an integer.  Modelled for literal exponents (closed
   non-literal exponents such as max_value(1,2), which Python evaluates, are treated as non-integer:
   see the report; the generators never produce them) *)
Definition int_valued (b : expr) : bool :=
  match b with
  | Zero _ _ => true
  | IntV _ => true
  | RatV _ q => Pos.eqb q 1
  | _ => false
  end.

Definition ordering (op : cmpop) : bool :=
  match op with CEQ | CNE => false | _ => true end.

Definition R := option (expr * ty).

(* which math functions / Bessel kinds the analysis types "complex" whatever the operand:
   pinned tree: only sqrt;  tree with fixes/C23-partial-mathfn.diff: sqrt, ln, acos, asin and every
   Bessel function (handlers `ln = acos = asin = bessel_function = sqrt`) *)
Definition cfn_of (fixm : bool) (f : mathfn) : bool :=
  match f with FSqrt => true | FLn | FAcos | FAsin => fixm | _ => false end.
Definition cbs_of (fixm : bool) (_ : bkind) : bool := fixm.


(* default rule *)
Definition d1 (f : expr -> expr) (ra : R) : R :=
  match ra with Some (a, ta) => Some (f a, join [ta]) | None => None end.
Definition d2 (f : expr -> expr -> expr) (ra rb : R) : R :=
  match ra, rb with
  | Some (a, ta), Some (b, tb) => Some (f a b, join [ta; tb])
  | _, _ => None
  end.
(* default rule of a node one of whose operands is a non-literal terminal that `terminal` classifies
   complex (MultiIndex of IndexSum / ComponentTensor, Label of Variable): always complex *)
Definition dx (f : expr -> expr) (ra : R) : R :=
  match ra with Some (a, _) => Some (f a, TComplex) | None => None end.
(* a two-operand node typed complex whatever the operands (Bessel functions on the fixed tree) *)
Definition x2 (f : expr -> expr -> expr) (ra rb : R) : R :=
  match ra, rb with
  | Some (a, _), Some (b, _) => Some (f a b, TComplex)
  | _, _ => None
  end.
(* real / imag / abs / sqrt: constant type *)
Definition kc (t : ty) (f : expr -> expr) (ra : R) : R :=
  match ra with Some (a, _) => Some (f a, t) | None => None end.
(* compare / min_value / max_value *)
Definition c2 (f : expr -> expr -> expr) (ra rb : R) : R :=
  match ra, rb with
  | Some (a, ta), Some (b, tb) =>
      if is_complex ta || is_complex tb then None
      else Some (f (mk_real a) (mk_real b), TBool)
  | _, _ => None
  end.

Fixpoint check (cfn : mathfn -> bool) (cbs : bkind -> bool) (e : expr) {struct e} : R :=
  match e with
  | Zero _ _ | IntV _ | RealV _ _ | RatV _ _ => Some (e, TReal)
  | CplxV _ _ _ _ | Identity _ | PermSym _ => Some (e, TComplex)
  | Term k _ _ => Some (e, term_ty k)
  | Sum a b => d2 Sum (check cfn cbs a) (check cfn cbs b)
  | Product a b => d2 Product (check cfn cbs a) (check cfn cbs b)
  | Division a b => d2 Division (check cfn cbs a) (check cfn cbs b)
  | Power a b =>
      match check cfn cbs a, check cfn cbs b with
      | Some (a', ta), Some (b', _) =>
          Some (Power a' b', if is_real ta && int_valued b' then TReal else TComplex)
      | _, _ => None
      end
  | Abs a => kc TReal Abs (check cfn cbs a)
  | Conj a => d1 Conj (check cfn cbs a)
  | Real a => kc TReal Real (check cfn cbs a)
  | Imag a => kc TReal Imag (check cfn cbs a)
  | Indexed a mi =>
      match check cfn cbs a with Some (a', ta) => Some (Indexed a' mi, ta) | None => None end
  | IndexSum a i d => dx (fun x => IndexSum x i d) (check cfn cbs a)
  | ComponentTensor a ix => dx (fun x => ComponentTensor x ix) (check cfn cbs a)
  | ListTensor es =>
      match (fix go (l : list expr) : option (list expr * list ty) :=
               match l with
               | [] => Some ([], [])
               | x :: t =>
                   match check cfn cbs x, go t with
                   | Some (x', tx), Some (l', ts) => Some (x' :: l', tx :: ts)
                   | _, _ => None
                   end
               end) es with
      | Some (es', ts) => Some (ListTensor es', join ts)
      | None => None
      end
  | Conditional c t f =>
      match checkc cfn cbs c, check cfn cbs t, check cfn cbs f with
      | Some (c', tyc), Some (t', tyt), Some (f', tyf) =>
          Some (Conditional c' t' f', join [tyc; tyt; tyf])
      | _, _, _ => None
      end
  | MinV a b => c2 MinV (check cfn cbs a) (check cfn cbs b)
  | MaxV a b => c2 MaxV (check cfn cbs a) (check cfn cbs b)
  | Math f a => if cfn f then kc TComplex (Math f) (check cfn cbs a) else d1 (Math f) (check cfn cbs a)
  | Atan2 a b => d2 Atan2 (check cfn cbs a) (check cfn cbs b)
  | Bessel k nu a => if cbs k then x2 (Bessel k) (check cfn cbs nu) (check cfn cbs a) else d2 (Bessel k) (check cfn cbs nu) (check cfn cbs a)
  | Vari a l => dx (fun x => Vari x l) (check cfn cbs a)
  | Restricted p a => d1 (Restricted p) (check cfn cbs a)
  | Grad a g => d1 (fun x => Grad x g) (check cfn cbs a)
  | RefGrad a g => d1 (fun x => RefGrad x g) (check cfn cbs a)
  | Div a g => d1 (fun x => Div x g) (check cfn cbs a)
  | NablaGrad a g => d1 (fun x => NablaGrad x g) (check cfn cbs a)
  | NablaDiv a g => d1 (fun x => NablaDiv x g) (check cfn cbs a)
  | Curl a => d1 Curl (check cfn cbs a)
  | RefValue a sh => d1 (fun x => RefValue x sh) (check cfn cbs a)
  | Transposed a => d1 Transposed (check cfn cbs a)
  | Outer a b => d2 Outer (check cfn cbs a) (check cfn cbs b)
  | Inner a b => d2 Inner (check cfn cbs a) (check cfn cbs b)
  | Dot a b => d2 Dot (check cfn cbs a) (check cfn cbs b)
  | Cross a b => d2 Cross (check cfn cbs a) (check cfn cbs b)
  | Perp a => d1 Perp (check cfn cbs a)
  | Trace a => d1 Trace (check cfn cbs a)
  | Determinant a => d1 Determinant (check cfn cbs a)
  | Inverse a => d1 Inverse (check cfn cbs a)
  | Cofactor a => d1 Cofactor (check cfn cbs a)
  | Deviatoric a => d1 Deviatoric (check cfn cbs a)
  | Skew a => d1 Skew (check cfn cbs a)
  | Sym a => d1 Sym (check cfn cbs a)
  end
with checkc (cfn : mathfn -> bool) (cbs : bkind -> bool) (c : cond) {struct c} : option (cond * ty) :=
  match c with
  | Cmp op a b =>
      match check cfn cbs a, check cfn cbs b with
      | Some (a', ta), Some (b', tb) =>
          if ordering op then
            if is_complex ta || is_complex tb then None
            else Some (Cmp op (mk_real a') (mk_real b'), TBool)
          else Some (Cmp op a' b', join [ta; tb])
      | _, _ => None
      end
  | AndC a b =>
      match checkc cfn cbs a, checkc cfn cbs b with
      | Some (a', ta), Some (b', tb) => Some (AndC a' b', join [ta; tb])
      | _, _ => None
      end
  | OrC a b =>
      match checkc cfn cbs a, checkc cfn cbs b with
      | Some (a', ta), Some (b', tb) => Some (OrC a' b', join [ta; tb])
      | _, _ => None
      end
  | NotC a =>
      match checkc cfn cbs a with Some (a', ta) => Some (NotC a', join [ta]) | None => None end
  end.

Fixpoint check_list (cfn : mathfn -> bool) (cbs : bkind -> bool) (l : list expr) {struct l} : option (list expr * list ty) :=
  match l with
  | [] => Some ([], [])
  | x :: t =>
      match check cfn cbs x, check_list cfn cbs t with
      | Some (x', tx), Some (l', ts) => Some (x' :: l', tx :: ts)
      | _, _ => None
      end
  end.
Lemma check_ListTensor cfn cbs es :
  check cfn cbs (ListTensor es) =
  match check_list cfn cbs es with Some (es', ts) => Some (ListTensor es', join ts) | None => None end.
Proof.
  cbn [check].
  match goal with |- match ?g es with _ => _ end = _ =>
    assert (H : forall l, g l = check_list cfn cbs l) end.
  { induction l as [|x l IH]; [reflexivity|]. cbn [check_list]. rewrite <- IH. reflexivity. }
  rewrite H. reflexivity.
Qed.


(* real mode: ComplexNodeRemoval *)
Definition o1 (f : expr -> expr) (ra : option expr) : option expr :=
  match ra with Some a => Some (f a) | None => None end.
Definition o2 (f : expr -> expr -> expr) (ra rb : option expr) : option expr :=
  match ra, rb with Some a, Some b => Some (f a b) | _, _ => None end.

Fixpoint remove (e : expr) : option expr :=
  match e with
  | CplxV _ _ _ _ => None
  | Zero _ _ | IntV _ | RealV _ _ | RatV _ _ | Identity _ | PermSym _ | Term _ _ _ => Some e
  | Conj a => remove a
  | Real a => remove a
  | Imag a => None
  | Sum a b => o2 Sum (remove a) (remove b)
  | Product a b => o2 Product (remove a) (remove b)
  | Division a b => o2 Division (remove a) (remove b)
  | Power a b => o2 Power (remove a) (remove b)
  | Abs a => o1 Abs (remove a)
  | Indexed a mi => o1 (fun x => Indexed x mi) (remove a)
  | IndexSum a i d => o1 (fun x => IndexSum x i d) (remove a)
  | ComponentTensor a ix => o1 (fun x => ComponentTensor x ix) (remove a)
  | ListTensor es =>
      match (fix go (l : list expr) : option (list expr) :=
            match l with
            | [] => Some []
            | x :: t => match remove x, go t with Some x', Some l' => Some (x' :: l') | _, _ => None end
            end) es with
      | Some es' => Some (ListTensor es')
      | None => None
      end
  | Conditional c t f =>
      match removec c, remove t, remove f with
      | Some c', Some t', Some f' => Some (Conditional c' t' f')
      | _, _, _ => None
      end
  | MinV a b => o2 MinV (remove a) (remove b)
  | MaxV a b => o2 MaxV (remove a) (remove b)
  | Math f a => o1 (Math f) (remove a)
  | Atan2 a b => o2 Atan2 (remove a) (remove b)
  | Bessel k nu a => o2 (Bessel k) (remove nu) (remove a)
  | Vari a l => o1 (fun x => Vari x l) (remove a)
  | Restricted p a => o1 (Restricted p) (remove a)
  | Grad a g => o1 (fun x => Grad x g) (remove a)
  | RefGrad a g => o1 (fun x => RefGrad x g) (remove a)
  | Div a g => o1 (fun x => Div x g) (remove a)
  | NablaGrad a g => o1 (fun x => NablaGrad x g) (remove a)
  | NablaDiv a g => o1 (fun x => NablaDiv x g) (remove a)
  | Curl a => o1 Curl (remove a)
  | RefValue a sh => o1 (fun x => RefValue x sh) (remove a)
  | Transposed a => o1 Transposed (remove a)
  | Outer a b => o2 Outer (remove a) (remove b)
  | Inner a b => o2 Inner (remove a) (remove b)
  | Dot a b => o2 Dot (remove a) (remove b)
  | Cross a b => o2 Cross (remove a) (remove b)
  | Perp a => o1 Perp (remove a)
  | Trace a => o1 Trace (remove a)
  | Determinant a => o1 Determinant (remove a)
  | Inverse a => o1 Inverse (remove a)
  | Cofactor a => o1 Cofactor (remove a)
  | Deviatoric a => o1 Deviatoric (remove a)
  | Skew a => o1 Skew (remove a)
  | Sym a => o1 Sym (remove a)
  end
with removec (c : cond) : option cond :=
  match c with
  | Cmp op a b =>
      match remove a, remove b with Some a', Some b' => Some (Cmp op a' b') | _, _ => None end
  | AndC a b =>
      match removec a, removec b with Some a', Some b' => Some (AndC a' b') | _, _ => None end
  | OrC a b =>
      match removec a, removec b with Some a', Some b' => Some (OrC a' b') | _, _ => None end
  | NotC a => match removec a with Some a' => Some (NotC a') | None => None end
  end.

Fixpoint remove_list (l : list expr) : option (list expr) :=
  match l with
  | [] => Some []
  | x :: t => match remove x, remove_list t with Some x', Some l' => Some (x' :: l') | _, _ => None end
  end.
Lemma remove_ListTensor es :
  remove (ListTensor es) = match remove_list es with Some es' => Some (ListTensor es') | None => None end.
Proof. reflexivity. Qed.

(* the handler tables the model implements (compared with the source by Gen/C23_rules.v) *)
Inductive hrule :=
 | HDefault (marker ifmarked otherwise empty : string)
 | HCompare (marker wrap result : string)
 | HConst (t : string)
 | HPower (base_is yes no : string)
 | HPowerLit (base_is yes no : string)   (* power converting only literal RealValue | Zero exponents *)
 | HTerminal (reals : list string) (yes no : string)
 | HIndexed
 | HChild                      (* ComplexNodeRemoval.conj / real : return the operand *)
 | HRaise (exc : string)       (* ComplexNodeRemoval.imag *)
 | HTerminalRaise (cls exc : string)
 | HReuse.                     (* expr = MultiFunction.reuse_if_untouched *)

Open Scope string_scope.
Definition cc_rules (fixp : bool) : list (string * hrule) :=
  [ ("expr", HDefault "complex" "complex" "real" "complex");
    ("compare", HCompare "complex" "Real" "bool");
    ("max_value", HCompare "complex" "Real" "bool");
    ("min_value", HCompare "complex" "Real" "bool");
    ("real", HConst "real");
    ("imag", HConst "real");
    ("sqrt", HConst "complex");
    ("power", if fixp then HPowerLit "real" "real" "complex" else HPower "real" "real" "complex");
    ("abs", HConst "real");
    ("terminal", HTerminal ["RealValue"; "Zero"; "Argument"; "GeometricQuantity"] "real" "complex");
    ("indexed", HIndexed) ].
Definition cc_aliases (fixm : bool) : list (string * string) :=
  [ ("gt", "compare"); ("lt", "compare"); ("ge", "compare"); ("le", "compare"); ("sign", "compare") ]
  ++ (if fixm then [ ("ln", "sqrt"); ("acos", "sqrt"); ("asin", "sqrt"); ("bessel_function", "sqrt") ] else []).
Definition rm_rules : list (string * hrule) :=
  [ ("expr", HReuse);
    ("conj", HChild);
    ("real", HChild);
    ("imag", HRaise "ValueError");
    ("terminal", HTerminalRaise "ComplexValue" "ValueError") ].

(* which handler the live MultiFunction instance dispatches every modelled node class to *)
Definition cc_dispatch0 : list (string * string) :=
  [ ("Zero", "terminal"); ("IntValue", "terminal"); ("FloatValue", "terminal");
    ("ComplexValue", "terminal"); ("Identity", "terminal"); ("PermutationSymbol", "terminal");
    ("Coefficient", "terminal"); ("Argument", "terminal"); ("Constant", "terminal");
    ("SpatialCoordinate", "terminal"); ("FacetNormal", "terminal"); ("CellVolume", "terminal");
    ("MultiIndex", "terminal"); ("Label", "terminal");
    ("Sum", "expr"); ("Product", "expr"); ("Division", "expr"); ("Power", "power");
    ("Abs", "abs"); ("Conj", "expr"); ("Real", "real"); ("Imag", "imag");
    ("Indexed", "indexed"); ("IndexSum", "expr"); ("ComponentTensor", "expr"); ("ListTensor", "expr");
    ("Conditional", "expr"); ("MinValue", "min_value"); ("MaxValue", "max_value");
    ("EQ", "expr"); ("NE", "expr"); ("LT", "compare"); ("GT", "compare"); ("LE", "compare");
    ("GE", "compare"); ("AndCondition", "expr"); ("OrCondition", "expr"); ("NotCondition", "expr");
    ("Sqrt", "sqrt"); ("Exp", "expr"); ("Ln", "expr"); ("Cos", "expr"); ("Sin", "expr"); ("Tan", "expr");
    ("Cosh", "expr"); ("Sinh", "expr"); ("Tanh", "expr"); ("Acos", "expr"); ("Asin", "expr");
    ("Atan", "expr"); ("Erf", "expr"); ("Atan2", "expr");
    ("BesselJ", "expr"); ("BesselY", "expr"); ("BesselI", "expr"); ("BesselK", "expr");
    ("Variable", "expr"); ("PositiveRestricted", "expr"); ("NegativeRestricted", "expr");
    ("Grad", "expr"); ("ReferenceGrad", "expr"); ("Div", "expr"); ("NablaGrad", "expr");
    ("NablaDiv", "expr"); ("Curl", "expr"); ("ReferenceValue", "expr");
    ("Transposed", "expr"); ("Outer", "expr"); ("Inner", "expr"); ("Dot", "expr"); ("Cross", "expr");
    ("Perp", "expr"); ("Trace", "expr"); ("Determinant", "expr"); ("Inverse", "expr");
    ("Cofactor", "expr"); ("Deviatoric", "expr"); ("Skew", "expr"); ("Sym", "expr") ].
Definition cc_dispatch (fixm : bool) : list (string * string) :=
  map (fun p : string * string =>
         let (c, h) := p in
         (c, if fixm && (String.eqb c "Ln" || String.eqb c "Acos" || String.eqb c "Asin" || String.eqb c "BesselJ"
                         || String.eqb c "BesselY" || String.eqb c "BesselI" || String.eqb c "BesselK")
             then "sqrt" else h))
      cc_dispatch0.
Definition rm_dispatch : list (string * string) :=
  map (fun p : string * string =>
         let (c, h) := p in
         (c, if String.eqb c "Conj" then "conj"
             else if String.eqb c "Real" then "real"
             else if String.eqb c "Imag" then "imag"
             else if String.eqb h "terminal" then "terminal" else "expr"))
      cc_dispatch0.
Close Scope string_scope.

(* ordering sites: operand pairs of every ordering comparison / min / max anywhere in e *)
Fixpoint sites (e : expr) : list (expr * expr) :=
  match e with
  | Zero _ _ | IntV _ | RealV _ _ | CplxV _ _ _ _ | RatV _ _ | Identity _ | PermSym _ | Term _ _ _ => []
  | MinV a b | MaxV a b => (a, b) :: sites a ++ sites b
  | Sum a b | Product a b | Division a b | Power a b | Atan2 a b | Bessel _ a b
  | Outer a b | Inner a b | Dot a b | Cross a b => sites a ++ sites b
  | Abs a | Conj a | Real a | Imag a | Indexed a _ | IndexSum a _ _ | ComponentTensor a _
  | Math _ a | Vari a _ | Restricted _ a | Grad a _ | RefGrad a _ | Div a _ | NablaGrad a _
  | NablaDiv a _ | Curl a | RefValue a _ | Transposed a | Perp a | Trace a | Determinant a
  | Inverse a | Cofactor a | Deviatoric a | Skew a | Sym a => sites a
  | ListTensor es =>
      (fix go (l : list expr) := match l with [] => [] | x :: t => sites x ++ go t end) es
  | Conditional c t f => csites c ++ sites t ++ sites f
  end
with csites (c : cond) : list (expr * expr) :=
  match c with
  | Cmp op a b => (if ordering op then [(a, b)] else []) ++ sites a ++ sites b
  | AndC a b | OrC a b => csites a ++ csites b
  | NotC a => csites a
  end.
Fixpoint sites_list (l : list expr) : list (expr * expr) :=
  match l with [] => [] | x :: t => sites x ++ sites_list t end.
Lemma sites_ListTensor es : sites (ListTensor es) = sites_list es.
Proof. reflexivity. Qed.

Definition ty_of (cfn : mathfn -> bool) (cbs : bkind -> bool) (e : expr) : option ty :=
  match check cfn cbs e with Some (_, t) => Some t | None => None end.
(* a site with an operand the analysis types "complex" (or cannot type at all) *)
Definition bad_site (cfn : mathfn -> bool) (cbs : bkind -> bool) (p : expr * expr) : bool :=
  match ty_of cfn cbs (fst p), ty_of cfn cbs (snd p) with
  | Some ta, Some tb => is_complex ta || is_complex tb
  | _, _ => true
  end.
(* what Real.__new__ can return *)
Definition wrapped (e : expr) : bool :=
  match e with Real _ | Zero _ _ | IntV _ | RealV _ _ | RatV _ _ => true | _ => false end.
Definition wrapped_site (p : expr * expr) : bool := wrapped (fst p) && wrapped (snd p).

(* nodes that must not survive real mode *)
Fixpoint cfree (e : expr) : bool :=
  match e with
  | CplxV _ _ _ _ | Conj _ | Real _ | Imag _ => false
  | Zero _ _ | IntV _ | RealV _ _ | RatV _ _ | Identity _ | PermSym _ | Term _ _ _ => true
  | Sum a b | Product a b | Division a b | Power a b | Atan2 a b | Bessel _ a b | MinV a b | MaxV a b
  | Outer a b | Inner a b | Dot a b | Cross a b => cfree a && cfree b
  | Abs a | Indexed a _ | IndexSum a _ _ | ComponentTensor a _
  | Math _ a | Vari a _ | Restricted _ a | Grad a _ | RefGrad a _ | Div a _ | NablaGrad a _
  | NablaDiv a _ | Curl a | RefValue a _ | Transposed a | Perp a | Trace a | Determinant a
  | Inverse a | Cofactor a | Deviatoric a | Skew a | Sym a => cfree a
  | ListTensor es =>
      (fix go (l : list expr) := match l with [] => true | x :: t => cfree x && go t end) es
  | Conditional c t f => cfreec c && cfree t && cfree f
  end
with cfreec (c : cond) : bool :=
  match c with
  | Cmp _ a b => cfree a && cfree b
  | AndC a b | OrC a b => cfreec a && cfreec b
  | NotC a => cfreec a
  end.
Fixpoint cfree_list (l : list expr) : bool :=
  match l with [] => true | x :: t => cfree x && cfree_list t end.

(* contains an Imag node or a complex literal *)
Fixpoint has_ic (e : expr) : bool :=
  match e with
  | CplxV _ _ _ _ | Imag _ => true
  | Zero _ _ | IntV _ | RealV _ _ | RatV _ _ | Identity _ | PermSym _ | Term _ _ _ => false
  | Sum a b | Product a b | Division a b | Power a b | Atan2 a b | Bessel _ a b | MinV a b | MaxV a b
  | Outer a b | Inner a b | Dot a b | Cross a b => has_ic a || has_ic b
  | Abs a | Conj a | Real a | Indexed a _ | IndexSum a _ _ | ComponentTensor a _
  | Math _ a | Vari a _ | Restricted _ a | Grad a _ | RefGrad a _ | Div a _ | NablaGrad a _
  | NablaDiv a _ | Curl a | RefValue a _ | Transposed a | Perp a | Trace a | Determinant a
  | Inverse a | Cofactor a | Deviatoric a | Skew a | Sym a => has_ic a
  | ListTensor es =>
      (fix go (l : list expr) := match l with [] => false | x :: t => has_ic x || go t end) es
  | Conditional c t f => has_icc c || has_ic t || has_ic f
  end
with has_icc (c : cond) : bool :=
  match c with
  | Cmp _ a b => has_ic a || has_ic b
  | AndC a b | OrC a b => has_icc a || has_icc b
  | NotC a => has_icc a
  end.
Fixpoint has_ic_list (l : list expr) : bool :=
  match l with [] => false | x :: t => has_ic x || has_ic_list t end.

Lemma size_pos e : 0 < size e.
Proof. exact (Facts.size_pos e). Qed.
Lemma csize_pos c : 0 < csize c.
Proof. exact (Facts.csize_pos c). Qed.
