(* C14, hand-written model: the arity checker of ufl/algorithms/check_arities.py as total Gallina
   functions over [expr], one function per handler of [ArityChecker]; the dispatch (which node class
   reaches which handler) is the table [class_handler], which the check compares on every run with the
   table regenerated from the source (coq/Gen/C14_table.v, tie T1).  Also: the terminals of an
   expression, and [den] depends on the environment only through the terminals that occur. *)
Require Import UFLV.Core.Facts UFLV.Props.C21_ind.
Require Import Lia.

Fixpoint csubs (c : cond) : list expr :=
  match c with
  | Cmp _ a b => [a; b]
  | AndC a b | OrC a b => csubs a ++ csubs b
  | NotC a => csubs a
  end.

Definition subs (e : expr) : list expr :=
  match e with
  | Zero _ _ | IntV _ | RealV _ _ | CplxV _ _ _ _ | RatV _ _ | Identity _ | PermSym _ | Term _ _ _ => []
  | Sum a b | Product a b | Division a b | Power a b | MinV a b | MaxV a b | Atan2 a b
  | Bessel _ a b | Outer a b | Inner a b | Dot a b | Cross a b => [a; b]
  | Abs a | Conj a | Real a | Imag a | Indexed a _ | IndexSum a _ _ | ComponentTensor a _
  | Math _ a | Vari a _ | Restricted _ a | Grad a _ | RefGrad a _ | Div a _ | NablaGrad a _
  | NablaDiv a _ | Curl a | RefValue a _ | Transposed a | Perp a | Trace a | Determinant a
  | Inverse a | Cofactor a | Deviatoric a | Skew a | Sym a => [a]
  | ListTensor es => es
  | Conditional c t f => csubs c ++ [t; f]
  end.

(* the terminals (kind, id) that occur in an expression *)
Fixpoint terms (e : expr) : list (nat * nat) :=
  match e with
  | Term k id _ => [(k, id)]
  | Zero _ _ | IntV _ | RealV _ _ | CplxV _ _ _ _ | RatV _ _ | Identity _ | PermSym _ => []
  | Sum a b | Product a b | Division a b | Power a b | MinV a b | MaxV a b | Atan2 a b
  | Bessel _ a b | Outer a b | Inner a b | Dot a b | Cross a b => terms a ++ terms b
  | Abs a | Conj a | Real a | Imag a | Indexed a _ | IndexSum a _ _ | ComponentTensor a _
  | Math _ a | Vari a _ | Restricted _ a | Grad a _ | RefGrad a _ | Div a _ | NablaGrad a _
  | NablaDiv a _ | Curl a | RefValue a _ | Transposed a | Perp a | Trace a | Determinant a
  | Inverse a | Cofactor a | Deviatoric a | Skew a | Sym a => terms a
  | ListTensor es => (fix go (l : list expr) := match l with [] => [] | x :: t => terms x ++ go t end) es
  | Conditional c t f => cterms c ++ terms t ++ terms f
  end
with cterms (c : cond) : list (nat * nat) :=
  match c with
  | Cmp _ a b => terms a ++ terms b
  | AndC a b | OrC a b => cterms a ++ cterms b
  | NotC a => cterms a
  end.

Definition lterms (es : list expr) : list (nat * nat) :=
  (fix go (l : list expr) := match l with [] => [] | x :: t => terms x ++ go t end) es.

Lemma terms_ListTensor es : terms (ListTensor es) = lterms es.
Proof. reflexivity. Qed.

Lemma lterms_in es p : In p (lterms es) <-> exists x, In x es /\ In p (terms x).
Proof.
  induction es as [|e t IH]; cbn [lterms In].
  - split; [intros []|intros [x [[] _]]].
  - fold (lterms t). rewrite in_app_iff, IH. split.
    + intros [H|[x [Hx Hp]]]; [exists e; auto|exists x; auto].
    + intros [x [[<-|Hx] Hp]]; [left; auto|right; exists x; auto].
Qed.

(* [den] depends on the environment only through the terminals that occur *)
Section DenExt.
Variable A : ualg.
Variables env env' : side -> nat -> nat -> list nat -> A.
Variables D DX : nat -> A -> A.
Variable ki : A.

Notation den1 := (@den A env D DX ki).
Notation den2 := (@den A env' D DX ki).

Definition agree_on (l : list (nat * nat)) : Prop :=
  forall k id, In (k, id) l -> forall s c, env s k id c = env' s k id c.

Lemma agree_app l1 l2 : agree_on (l1 ++ l2) -> agree_on l1 /\ agree_on l2.
Proof. intros H. split; intros k id Hin; apply H, in_or_app; auto. Qed.

Ltac agree_split :=
  repeat match goal with H : agree_on (_ ++ _) |- _ => apply agree_app in H; destruct H end.

Lemma den_ext_both :
  (forall e (Hag : agree_on (terms e)) s rho c, den1 s rho e c = den2 s rho e c) /\
  (forall cn (Hag : agree_on (cterms cn)) s rho,
     denc env D DX ki s rho cn = denc env' D DX ki s rho cn).
Proof.
  (* the induction hypotheses are H, H0, H1; the first seven cases are the literals *)
  apply expr_cond_full_ind; cbn [terms cterms]; intros.
  1-7: reflexivity.
  all: agree_split; cbn [den].
  (* where [den] applies a fixed operation to the values of the operands at fixed components, rewriting
     with the hypotheses makes the two sides identical; [reflexivity] is tried only then, since on
     different sides it compares the unfolded fixpoints *)
  all: try (first [rewrite !H, !H0 by assumption | rewrite !H by assumption];
            lazymatch goal with |- ?x = ?y => constr_eq x y end; reflexivity).
  (* sums over an index or a component: the same under the binder *)
  all: try (first [apply ksum_ext; intros k _ | apply ksum_shape_ext; intros k];
            rewrite ?H, ?H0 by assumption; reflexivity).
  (* a case distinction on the component *)
  all: try (destruct c as [|i [|j [|? ?]]]; rewrite ?H, ?H0 by assumption;
            lazymatch goal with |- ?x = ?y => constr_eq x y end; reflexivity).
  - (* Term *) apply Hag. left. reflexivity.
  - (* ListTensor *)
    destruct c as [|k c]; [reflexivity|]. revert Hag k.
    induction H as [|x t Hx _ IH]; intros Hag [|k]; try reflexivity;
      apply agree_app in Hag; destruct Hag; [apply Hx|apply IH]; assumption.
  - (* Conditional, like the conditions below: [cbn] does not fold [denc] back *)
    exact (f_equal3 kcond (H H2 s rho) (H0 H3 s rho c0) (H1 H4 s rho c0)).
  - (* Grad *) destruct (split_last c). rewrite H by assumption. reflexivity.
  - (* RefGrad *) destruct (split_last c). rewrite H by assumption. reflexivity.
  - (* Determinant *)
    specialize (H Hag). destruct (shape a) as [|m [|n [|? ?]]]; rewrite ?H; try reflexivity.
    destruct (Nat.eqb m n); [|apply f_equal]; apply det_ext; intros i j; [|apply gram_ext; intros ? ?]; apply H.
  - (* Inverse *)
    specialize (H Hag). destruct (shape a) as [|m [|n [|? ?]]]; rewrite ?H; try reflexivity.
    destruct c as [|i [|j [|? ?]]]; try reflexivity.
    destruct (Nat.eqb m n).
    + apply f_equal2; [apply cofactor_ext|apply det_ext]; intros ? ?; apply H.
    + apply ksum_ext. intros k _. rewrite H. apply f_equal2; [|reflexivity].
      apply f_equal2; [apply cofactor_ext|apply det_ext]; intros ? ?; apply gram_ext; intros ? ?; apply H.
  - (* Cofactor *)
    destruct (shape a) as [|m [|n [|? ?]]]; try reflexivity.
    destruct c as [|i [|j [|? ?]]]; try reflexivity.
    apply cofactor_ext. intros ? ?. apply H, Hag.
  - (* Deviatoric *)
    specialize (H Hag). destruct (shape a) as [|m [|n [|? ?]]]; try reflexivity.
    destruct c as [|i [|j [|? ?]]]; try reflexivity.
    rewrite H. destruct (Nat.eqb i j); [|reflexivity].
    apply f_equal, f_equal2; [|reflexivity]. apply ksum_ext. intros k _. apply H.
  - (* Cmp *) exact (f_equal2 (bcmp op) (H H1 s rho []) (H0 H2 s rho [])).
  - (* AndC *) exact (f_equal2 band (H H1 s rho) (H0 H2 s rho)).
  - (* OrC *) exact (f_equal2 bor (H H1 s rho) (H0 H2 s rho)).
  - (* NotC *) exact (f_equal bnot (H Hag s rho)).
Qed.

Definition den_ext := proj1 den_ext_both.
Definition denc_ext := proj2 den_ext_both.

End DenExt.

(* an arity: the tuple of (argument id, conjugated?) pairs, kept sorted by (id, flag) without
   repetitions (Python: tuples sorted by (number, part), built from sets) *)
Definition ar := list (nat * bool).
Inductive res := OK (a : ar) | Err.

Definition pair_eqb (x y : nat * bool) : bool := Nat.eqb (fst x) (fst y) && Bool.eqb (snd x) (snd y).
Definition pair_ltb (x y : nat * bool) : bool :=
  Nat.ltb (fst x) (fst y) || (Nat.eqb (fst x) (fst y) && (negb (snd x) && snd y)).
Fixpoint ins (x : nat * bool) (l : ar) : ar :=
  match l with
  | [] => [x]
  | y :: t => if pair_eqb x y then l else if pair_ltb x y then x :: l else y :: ins x t
  end.
Definition a_union (a b : ar) : ar := fold_right ins b a.
Definition flip (p : nat * bool) : nat * bool := (fst p, negb (snd p)).
Definition a_conj (a : ar) : ar := fold_right ins [] (map flip a).
Fixpoint aeqb (a b : ar) : bool :=
  match a, b with
  | [], [] => true
  | x :: s, y :: t => pair_eqb x y && aeqb s t
  | _, _ => false
  end.

Fixpoint ins_nat (x : nat) (l : list nat) : list nat :=
  match l with
  | [] => [x]
  | y :: t => if Nat.eqb x y then l else if Nat.ltb x y then x :: l else y :: ins_nat x t
  end.
Fixpoint nat_list_eqb (a b : list nat) : bool :=
  match a, b with
  | [], [] => true
  | x :: s, y :: t => Nat.eqb x y && nat_list_eqb s t
  | _, _ => false
  end.
Definition nonempty {T} (l : list T) : bool := match l with [] => false | _ => true end.
Definition is_zero (e : expr) : bool := match e with Zero _ _ => true | _ => false end.
Definition is_argp (p : nat * nat) : bool := Nat.eqb (fst p) 1.
Definition has_arg (e : expr) : bool := existsb is_argp (terms e).
Definition has_arg_c (c : cond) : bool := existsb is_argp (cterms c).

Inductive hkind := H_terminal | H_argument | H_nonlinear | H_sum | H_division | H_product
                 | H_inner | H_outer | H_dot | H_linear | H_conj | H_variable | H_conditional
                 | H_indexed | H_list_tensor.

(* node classes: the concrete UFL classes that the serializer maps to a constructor of [expr]
   (math functions, Bessel functions, geometric quantities and literal classes are grouped; the check
   verifies that all members of a group dispatch alike), plus CellAvg / FacetAvg *)
Inductive cls := C_Zero | C_ScalarValue | C_Identity | C_PermutationSymbol | C_Coefficient | C_Argument
  | C_Constant | C_GeometricQuantity | C_Sum | C_Product | C_Division | C_Power | C_Abs | C_Conj
  | C_Real | C_Imag | C_Indexed | C_IndexSum | C_ComponentTensor | C_ListTensor | C_Conditional
  | C_MinValue | C_MaxValue | C_MathFunction | C_Atan2 | C_BesselFunction | C_Variable
  | C_PositiveRestricted | C_NegativeRestricted | C_Grad | C_ReferenceGrad | C_Div | C_NablaGrad
  | C_NablaDiv | C_Curl | C_ReferenceValue | C_Transposed | C_Outer | C_Inner | C_Dot | C_Cross
  | C_Perp | C_Trace | C_Determinant | C_Inverse | C_Cofactor | C_Deviatoric | C_Skew | C_Sym
  | C_CellAvg | C_FacetAvg | C_Condition.

(* THE DISPATCH TABLE assumed by the model (compared with the source on every run, tie T1) *)
Definition class_handler (c : cls) : hkind :=
  match c with
  | C_Zero | C_ScalarValue | C_Identity | C_PermutationSymbol | C_Coefficient | C_Constant
  | C_GeometricQuantity => H_terminal
  | C_Argument => H_argument
  | C_Sum => H_sum
  | C_Product => H_product
  | C_Division => H_division
  | C_Inner => H_inner
  | C_Dot => H_dot
  | C_Outer => H_outer
  | C_Conj => H_conj
  | C_Variable => H_variable
  | C_Conditional => H_conditional
  | C_Indexed | C_IndexSum | C_ComponentTensor => H_indexed
  | C_ListTensor => H_list_tensor
  | C_PositiveRestricted | C_NegativeRestricted | C_Grad | C_ReferenceGrad | C_ReferenceValue
  | C_CellAvg | C_FacetAvg => H_linear
  | C_Power | C_Abs | C_Real | C_Imag | C_MinValue | C_MaxValue | C_MathFunction | C_Atan2
  | C_BesselFunction | C_Div | C_NablaGrad | C_NablaDiv | C_Curl | C_Transposed | C_Cross | C_Perp
  | C_Trace | C_Determinant | C_Inverse | C_Cofactor | C_Deviatoric | C_Skew | C_Sym
  | C_Condition => H_nonlinear
  end.

Definition cls_of (e : expr) : cls :=
  match e with
  | Zero _ _ => C_Zero
  | IntV _ | RealV _ _ | CplxV _ _ _ _ | RatV _ _ => C_ScalarValue
  | Identity _ => C_Identity | PermSym _ => C_PermutationSymbol
  | Term k _ _ => match k with 0 => C_Coefficient | 1 => C_Argument | 2 => C_Constant
                  | _ => C_GeometricQuantity end
  | Sum _ _ => C_Sum | Product _ _ => C_Product | Division _ _ => C_Division | Power _ _ => C_Power
  | Abs _ => C_Abs | Conj _ => C_Conj | Real _ => C_Real | Imag _ => C_Imag
  | Indexed _ _ => C_Indexed | IndexSum _ _ _ => C_IndexSum | ComponentTensor _ _ => C_ComponentTensor
  | ListTensor _ => C_ListTensor | Conditional _ _ _ => C_Conditional
  | MinV _ _ => C_MinValue | MaxV _ _ => C_MaxValue | Math _ _ => C_MathFunction | Atan2 _ _ => C_Atan2
  | Bessel _ _ _ => C_BesselFunction | Vari _ _ => C_Variable
  | Restricted true _ => C_PositiveRestricted | Restricted false _ => C_NegativeRestricted
  | Grad _ _ => C_Grad | RefGrad _ _ => C_ReferenceGrad | Div _ _ => C_Div | NablaGrad _ _ => C_NablaGrad
  | NablaDiv _ _ => C_NablaDiv | Curl _ => C_Curl | RefValue _ _ => C_ReferenceValue
  | Transposed _ => C_Transposed | Outer _ _ => C_Outer | Inner _ _ => C_Inner | Dot _ _ => C_Dot
  | Cross _ _ => C_Cross | Perp _ => C_Perp | Trace _ => C_Trace | Determinant _ => C_Determinant
  | Inverse _ => C_Inverse | Cofactor _ => C_Cofactor | Deviatoric _ => C_Deviatoric | Skew _ => C_Skew
  | Sym _ => C_Sym
  end.

(* operands whose handler results reach the handler of e (the condition of a Conditional is an
   operand too, but its handler is [nonlinear_operator]: it is treated through [has_arg_c]) *)
Definition asubs (e : expr) : list expr :=
  match e with Conditional _ t f => [t; f] | _ => subs e end.

Lemma asubs_size e x : In x (asubs e) -> size x < size e.
Proof.
  destruct e; cbn [asubs subs size]; intros H; try (apply size_In_ListTensor, H);
    repeat (destruct H as [<-|H]; [lia|]); destruct H.
Qed.

Section Arity.
Variable num : nat -> nat.     (* argument id -> Argument.number() *)

Definition nums (a : ar) : list nat := fold_right ins_nat [] (map (fun p => num (fst p)) a).
Definition ids (a : ar) : list nat := fold_right ins_nat [] (map fst a).
Definition overlap (a b : ar) : bool :=
  existsb (fun x => existsb (fun y => Nat.eqb (num (fst x)) (num (fst y))) a) b.
Definition all_equal (ns : list (list nat)) : bool :=
  match ns with [] => true | x :: t => forallb (nat_list_eqb x) t end.

(* ---- the handlers of ArityChecker ---- *)
Definition h_sum (a b : ar) : res := if aeqb a b then OK a else Err.
Definition h_division (a b : ar) : res := match b with [] => OK a | _ => Err end.
Definition h_product (a b : ar) : res :=
  match a, b with
  | [], _ => OK b
  | _, [] => OK a
  | _, _ =>
      if overlap a b then Err
      else let c := a_union a b in
           if Nat.eqb (length c) (length a + length b) && Nat.eqb (length c) (length (ids c))
           then OK c else Err
  end.
Definition h_conditional (t f : expr) (a b : ar) : res :=
  if nonempty a && is_zero f then OK a
  else if nonempty b && is_zero t then OK b
  else if aeqb a b then OK a else Err.
(* list_tensor: when some component has arguments, the components without arguments must be Zero nodes;
   [es] are the operands *)
Definition bad_component (p : expr * ar) : bool := negb (nonempty (snd p)) && negb (is_zero (fst p)).
Definition h_list_tensor (es : list expr) (ops : list ar) : res :=
  let args := fold_right a_union [] ops in
  match args with
  | [] => OK []
  | _ => if existsb bad_component (combine es ops) then Err
         else if all_equal (filter nonempty (map nums ops)) then OK args else Err
  end.

Fixpoint all_ok (rs : list res) : option (list ar) :=
  match rs with
  | [] => Some []
  | OK a :: t => match all_ok t with Some l => Some (a :: l) | None => None end
  | Err :: _ => None
  end.

Definition apply_handler (h : hkind) (e : expr) (rs : list res) : res :=
  match h with
  | H_terminal => OK []
  | H_argument => match e with Term _ id _ => OK [(id, false)] | _ => Err end
  | H_nonlinear => if has_arg e then Err else OK []
  | _ =>
    match all_ok rs with
    | None => Err
    | Some l =>
      match h, l with
      | H_sum, [a; b] => h_sum a b
      | H_product, [a; b] => h_product a b
      | H_division, [a; b] => h_division a b
      | H_inner, [a; b] => h_product a (a_conj b)
      | H_outer, [a; b] => h_product (a_conj a) b
      | H_dot, [a; b] => h_product a b
      | H_linear, [a] | H_variable, [a] | H_indexed, [a] => OK a
      | H_conj, [a] => OK (a_conj a)
      | H_conditional, [a; b] =>
          match e with
          | Conditional c t f => if has_arg_c c then Err else h_conditional t f a b
          | _ => Err
          end
      | H_list_tensor, _ => h_list_tensor (asubs e) l
      | _, _ => Err
      end
    end
  end.

(* map_expr_dag(ArityChecker, e): post-order application of the handler chosen by the class table *)
Fixpoint arity_n (n : nat) (e : expr) : res :=
  match n with
  | O => Err
  | S m => apply_handler (class_handler (cls_of e)) e (map (arity_n m) (asubs e))
  end.
Definition arity (e : expr) : res := arity_n (size e) e.

Lemma arity_n_stable : forall n m e, size e <= n -> size e <= m -> arity_n n e = arity_n m e.
Proof.
  induction n as [|n IH]; intros m e Hn Hm.
  - pose proof (size_pos e). lia.
  - destruct m as [|m]; [pose proof (size_pos e); lia|].
    cbn [arity_n]. f_equal. apply map_ext_in. intros x Hx.
    apply asubs_size in Hx. apply IH; lia.
Qed.

Lemma arity_eq e : arity e = apply_handler (class_handler (cls_of e)) e (map arity (asubs e)).
Proof.
  unfold arity at 1. pose proof (size_pos e) as Hp.
  destruct (size e) as [|m] eqn:E; [lia|]. cbn [arity_n]. f_equal.
  apply map_ext_in. intros x Hx. unfold arity.
  apply asubs_size in Hx. apply arity_n_stable; lia.
Qed.

(* check_integrand_arity(e, arguments, complex_mode): [args] are the ids of the form's arguments in
   the order of sorted(set(arguments), key=(number, part)) *)
Definition conj_ok (p : nat * bool) : bool := if Nat.eqb (num (fst p)) 0 then snd p else negb (snd p).
Definition check (e : expr) (args : list nat) (cm : bool) : bool :=
  match arity e with
  | Err => false
  | OK a => nat_list_eqb (map fst a) args && (if cm then forallb conj_ok a else true)
  end.

End Arity.
