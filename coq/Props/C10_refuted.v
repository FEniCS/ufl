(* C10: the full (unguarded) statements are false for the models [rct] and [expandS], which follow the
   passes as they were before the repairs 71c3c8e (1) and b76108f (3) of /repo: each defect with its
   witness, evaluated in the field Qc of canonical rationals; (2) is a regression example for 826ad17,
   which the model contains.  The guarded statements that do hold are in C10_thm.v / C10_expand.v. *)
Require Import QArith Qcanon.
Require Import UFLV.Core.Den UFLV.Props.C10_model UFLV.Props.C10_expand.
Import ListNotations.
Close Scope Q_scope.
Open Scope nat_scope.

Definition QcA : ualg :=
  Build_ualg Qc 0%Qc 1%Qc Qcplus Qcmult Qcminus Qcopp Qcdiv Qcinv Qcft
    (fun x => x) (fun x => x) (fun _ => 0%Qc) (fun x => x)
    (fun _ x => x) (fun x _ => x) (fun x _ => x) (fun _ x _ => x)
    bool (fun _ _ _ => true) andb orb negb (fun (b : bool) x y => if b then x else y)
    (fun x _ => x) (fun x _ => x).
Definition noD : nat -> Qc -> Qc := fun _ _ => 0%Qc.

(* 1. index capture in IndexReplacer, which [rct] applies to the body of a ComponentTensor as it stands
      (since 71c3c8e the pass renames the clashing bound indices first):
      as_vector(sum_j A[i,j]*c[j], i)[j]  ->  sum_j A[j,j]*c[j] *)
Definition cap_A := Term 0 0 [2; 2].
Definition cap_c := Term 0 1 [2].
Definition cap_in : expr :=
  Indexed (ComponentTensor
             (IndexSum (Product (Indexed cap_A [Free 0; Free 1]) (Indexed cap_c [Free 1])) 1 2)
             [(0, 2)]) [Free 1].
Definition cap_out : expr :=
  IndexSum (Product (Indexed cap_A [Free 1; Free 1]) (Indexed cap_c [Free 1])) 1 2.
Definition cap_env : side -> nat -> nat -> list nat -> Qc :=
  fun _ _ id c => match id, c with
                  | 0, [0; 1] => 1%Qc
                  | 1, [1] => 1%Qc
                  | _, _ => 0%Qc
                  end.

Theorem C10_remove_refuted :
  exists e e', rk e 0 = true /\ rct e = Some e' /\ rct_safe e = false /\ hygienic e = false /\
    exists (A : ualg) env D DX ki s rho, @den A env D DX ki s rho e' [] <> @den A env D DX ki s rho e [].
Proof.
  exists cap_in, cap_out. repeat split; try (vm_compute; reflexivity).
  exists QcA, cap_env, noD, noD, 0%Qc, None, (fun _ => 0).
  intro H. apply (f_equal this) in H. vm_compute in H. discriminate H.
Qed.

(* 2. (fixed in /repo by commit 826ad17; the model follows the repaired code)  A Zero all of whose
      free indices are replaced by fixed indices becomes an index-free Zero: regression example *)
Definition zf_f := Term 0 0 [2].
Definition zf_in : expr :=
  Indexed (ComponentTensor
             (Indexed (ListTensor [Zero [] [(0, 2)]; Indexed zf_f [Free 0]]) [Free 1])
             [(0, 2); (1, 2)]) [Fixed 1; Fixed 0].
Example C10_remove_zero_fixed :
  rk zf_in 0 = true /\ hygienic zf_in = true /\ rct_safe zf_in = true /\
  rct zf_in = Some (Indexed (ListTensor [Zero [] []; Indexed zf_f [Fixed 1]]) [Fixed 0]).
Proof. repeat split; vm_compute; reflexivity. Qed.

(* 3. [expandS] (expand_indices before b76108f) re-uses the label-keyed variable cache across component
      contexts:  v = variable(f);  v[0] + 2*v[1]  ->  3*f[0] *)
Definition vc_f := Term 0 0 [2].
Definition vc_in : expr :=
  Sum (Indexed (Vari vc_f 0) [Fixed 0]) (Product (IntV 2) (Indexed (Vari vc_f 0) [Fixed 1])).
Definition vc_env : side -> nat -> nat -> list nat -> Qc :=
  fun _ _ _ c => match c with [1] => 1%Qc | _ => 0%Qc end.
Theorem C10_expand_refuted :
  exists e e', rk e 0 = true /\ expand_indices e = Some e' /\ var_ctx_clash e = true /\
    exists (A : ualg) env D DX ki s rho, @den A env D DX ki s rho e' [] <> @den A env D DX ki s rho e [].
Proof.
  exists vc_in. eexists. repeat split; try (vm_compute; reflexivity).
  exists QcA, vc_env, noD, noD, 0%Qc, None, (fun _ => 0).
  intro H. apply (f_equal this) in H. vm_compute in H. discriminate H.
Qed.

Print Assumptions C10_remove_refuted.
Print Assumptions C10_expand_refuted.
