(* C07, hand-written part 4: facet and cell normals; same conventions as C07_thms.v. *)
Require Import UFLV.Props.C07_tac UFLV.Props.C06_spec UFLV.Props.C09_algebra UFLV.Props.C07_spec.

(* ndir = K^T rn: against w = J x it is rn . x as soon as K is a left inverse of J, so what the physical normal
   does to the facet and to the opposite vertex is what the reference normal does to theirs *)
Section NdirDot.
Variable A : ualg.
Add Field FfC07d : (kfield A).
Open Scope K_scope.
Variables (V : nat -> nat -> A) (rd : A).

Lemma ndir_dot t g f (w x : nat -> A) :
  (forall a b, a < t -> b < t -> ksum g (fun i => Kinv A V t g a i * Jm A V i b) = delta A a b) ->
  (forall i, w i = ksum t (fun k => Jm A V i k * x k)) ->
  dotp A g (ndir A V rd t g f) w = dotp A t (rn A rd t f) x.
Proof.
  intros KJ Hw. unfold dotp, ndir.
  rewrite (ksum_ext A g _ (fun i => ksum t (fun j => rn A rd t f j * (Kinv A V t g j i * w i)))).
  2:{ intros i _. transitivity (w i * ksum t (fun j => Kinv A V t g j i * rn A rd t f j)); [ring|].
      rewrite <- ksum_scal. apply ksum_ext. intros; ring. }
  rewrite ksum_swap. apply ksum_ext. intros j Hj. rewrite ksum_scal. f_equal.
  rewrite (ksum_ext A g _ (fun i => ksum t (fun k => x k * (Kinv A V t g j i * Jm A V i k)))).
  2:{ intros i _. rewrite Hw, <- ksum_scal. apply ksum_ext. intros; ring. }
  rewrite ksum_swap, (ksum_ext A t _ (fun k => dl A j k * x k)).
  2:{ intros k Hk. rewrite ksum_scal, KJ by assumption. unfold delta, dl. ring. }
  apply C09_delta_elim, Hj.
Qed.

Lemma unit_len g (d : nat -> A) s : s <> k0 -> s * s = nrm2 A g d -> nrm2 A g (fun i => d i / s) = k1.
Proof.
  intros Hs E. unfold nrm2, dotp in *.
  rewrite (ksum_ext A g _ (fun i => d i * d i / (s * s))) by (intros; field; exact Hs).
  rewrite ksum_div, <- E by (apply mul_nz; exact Hs). field. exact Hs.
Qed.
End NdirDot.

Section Normals.
Variable KT : Type.
Variables (z0 z1 : KT) (add mul sub : KT -> KT -> KT) (opp : KT -> KT) (div : KT -> KT -> KT) (inv : KT -> KT).
Hypothesis Fth : field_theory z0 z1 add mul sub opp div inv (@eq KT).
Variables (conj re im abs : KT -> KT) (fn : mathfn -> KT -> KT) (pow atan2 : KT -> KT -> KT)
          (bessel : bkind -> KT -> KT -> KT).
Variable BT : Type.
Variables (cmp : cmpop -> KT -> KT -> BT) (and_ or_ : BT -> BT -> BT) (not_ : BT -> BT)
          (cond_ : BT -> KT -> KT -> KT) (min_ max_ : KT -> KT -> KT).
Definition A : ualg :=
  Build_ualg KT z0 z1 add mul sub opp div inv Fth conj re im abs fn pow atan2 bessel
             BT cmp and_ or_ not_ cond_ min_ max_.
Add Field FfC07n : Fth.
Hypothesis char0 : forall p, @of_pos A p <> z0.

Variable V : nat -> nat -> KT.
Variable rd : KT.

Notation Jm := (Jm A V).
Notation det := (@Den.det A).
Notation gram := (@Den.gram A).
Notation ksum := (@Alg.ksum A).
Notation sqrt_ := (fn FSqrt).
Notation nrm2 := (nrm2 A).
Notation dotp := (dotp A).
Definition sq_ok (x : KT) : Prop := mul (sqrt_ x) (sqrt_ x) = x.
Definition abs_sq : Prop := forall x : KT, mul (abs x) (abs x) = mul x x.

Notation ndir := (ndir A V rd).
Notation FJm := (FJm A V).

(* ---- facet normals of triangles and tetrahedra ---------------------------------------------- *)
(* fnormal = ndir / |ndir| (by definition, C07_spec.v); ndir = K^T rn is
   (a) orthogonal to every edge of the facet (columns of the facet Jacobian),
   (b) outward: ndir . (v_f - v_w0) = -scale, v_f the vertex opposite to the facet, scale = rd or 1,
   (c) tangent to the cell when the cell is immersed (orthogonal to the cell normal). *)
Lemma KJ_sq t : 1 <= t <= 4 -> det t Jm <> z0 ->
  forall a b, a < t -> b < t -> ksum t (fun i => mul (Kinv A V t t a i) (Jm i b)) = delta A a b.
Proof.
  intros Ht H a b Ha Hb. unfold Kinv, pinv. rewrite Nat.eqb_refl.
  apply (inverse_spec_upto4 A t Jm a b); assumption.
Qed.
Lemma KJ_32 : det 2 (gram 3 Jm) <> z0 ->
  forall a b, a < 2 -> b < 2 -> ksum 3 (fun i => mul (Kinv A V 2 3 a i) (Jm i b)) = delta A a b.
Proof. intros H a b Ha Hb. apply (pseudo_inverse_left A 3 2 Jm a b); [lia | assumption..]. Qed.

(* affine cell: facet edges and the vector to the opposite vertex are J times their reference counterparts *)
Lemma FJ_tri f i : f < 3 -> FJm f i 0 = ksum 2 (fun k => mul (Jm i k) (cfj A f k 0)).
Proof. intros Hf. fin f; rg. Qed.
Lemma FJ_tet f j i : f < 4 -> j < 2 -> FJm f i j = ksum 3 (fun k => mul (Jm i k) (cfj A f k j)).
Proof. intros Hf Hj. fin f; fin j; rg. Qed.
Lemma opp_tri f i : f < 3 ->
  sub (V f i) (V (fv f 0) i) = ksum 2 (fun k => mul (Jm i k) (sub (Xref A f k) (Xref A (fv f 0) k))).
Proof. intros Hf. fin f; rg. Qed.
Lemma opp_tet f i : f < 4 ->
  sub (V f i) (V (fv f 0) i) = ksum 3 (fun k => mul (Jm i k) (sub (Xref A f k) (Xref A (fv f 0) k))).
Proof. intros Hf. fin f; rg. Qed.

Theorem ndir_tangent_tri2 f : f < 3 -> det 2 Jm <> z0 ->
  dotp 2 (ndir 2 2 f) (fun i => FJm f i 0) = z0.
Proof.
  intros Hf H. rewrite (ndir_dot A V rd 2 2 f _ _ (KJ_sq 2 ltac:(lia) H) (fun i => FJ_tri f i Hf)).
  apply rn_tangent_tri; lia.
Qed.
Theorem ndir_outward_tri2 f : f < 3 -> det 2 Jm <> z0 ->
  dotp 2 (ndir 2 2 f) (fun i => sub (V f i) (V (fv f 0) i)) = opp (rn_scale A rd f).
Proof.
  intros Hf H. rewrite (ndir_dot A V rd 2 2 f _ _ (KJ_sq 2 ltac:(lia) H) (fun i => opp_tri f i Hf)).
  apply rn_outward_tri, Hf.
Qed.
Theorem ndir_tangent_tet3 f j : f < 4 -> j < 2 -> det 3 Jm <> z0 ->
  dotp 3 (ndir 3 3 f) (fun i => FJm f i j) = z0.
Proof.
  intros Hf Hj H. rewrite (ndir_dot A V rd 3 3 f _ _ (KJ_sq 3 ltac:(lia) H) (fun i => FJ_tet f j i Hf Hj)).
  apply rn_tangent_tet; assumption.
Qed.
Theorem ndir_outward_tet3 f : f < 4 -> det 3 Jm <> z0 ->
  dotp 3 (ndir 3 3 f) (fun i => sub (V f i) (V (fv f 0) i)) = opp (rn_scale A rd f).
Proof.
  intros Hf H. rewrite (ndir_dot A V rd 3 3 f _ _ (KJ_sq 3 ltac:(lia) H) (fun i => opp_tet f i Hf)).
  apply rn_outward_tet, Hf.
Qed.
Theorem ndir_tangent_tri3 f : f < 3 -> det 2 (gram 3 Jm) <> z0 ->
  dotp 3 (ndir 2 3 f) (fun i => FJm f i 0) = z0.
Proof.
  intros Hf H. rewrite (ndir_dot A V rd 2 3 f _ _ (KJ_32 H) (fun i => FJ_tri f i Hf)).
  apply rn_tangent_tri; lia.
Qed.
Theorem ndir_outward_tri3 f : f < 3 -> det 2 (gram 3 Jm) <> z0 ->
  dotp 3 (ndir 2 3 f) (fun i => sub (V f i) (V (fv f 0) i)) = opp (rn_scale A rd f).
Proof.
  intros Hf H. rewrite (ndir_dot A V rd 2 3 f _ _ (KJ_32 H) (fun i => opp_tri f i Hf)).
  apply rn_outward_tri, Hf.
Qed.
Theorem ndir_in_plane_tri3 f : f < 3 -> det 2 (gram 3 Jm) <> z0 ->
  dotp 3 (ndir 2 3 f) (cnraw A V 3) = z0.
Proof. intros Hf H. norm_hyp H. fin f; fd char0. Qed.

Theorem fnormal_unit t g f : 2 <= t -> 2 <= g <= 3 ->
  sqrt_ (nrm2 g (ndir t g f)) <> z0 -> sq_ok (nrm2 g (ndir t g f)) ->
  nrm2 g (fnormal A V rd t g f) = z1.
Proof.
  intros Ht _ Hs Hq. destruct t as [|[|t]]; try lia. exact (unit_len A g _ _ Hs Hq).
Qed.

(* ---- facet "normals" of an interval (possibly immersed): +-J/|J|, pointing away from the other vertex.
   [len] stands for the length that [fnormal 1] divides by (abs or sqrt, uninterpreted here): the premise is the
   definition of [fnormal] with that denominator abstracted, and the conclusion, n . (v_other - v_f) * len =
   -|J|^2, says "outward" for len > 0, which an algebra without order cannot state. *)
Theorem fnormal_interval_outward g f len : 1 <= g <= 3 -> f < 2 -> len <> z0 ->
  (forall i, fnormal A V rd 1 g f i = div (mul (rn A rd 1 f 0) (Jm i 0)) len) ->
  mul (dotp g (fnormal A V rd 1 g f) (fun i => sub (V (1 - f) i) (V f i))) len
  = opp (nrm2 g (fun k => Jm k 0)).
Proof.
  intros Hg Hf Hl E. assert (Hc : g = 1 \/ g = 2 \/ g = 3) by lia.
  unfold C07_spec.dotp.
  destruct Hc as [Hc|[Hc|Hc]]; subst g; cbn [Alg.ksum]; rewrite !E; fin f; clear E; fd char0.
Qed.

(* ---- cell normal of an immersed cell (interval in 2D, triangle in 3D) ------------------------ *)
Theorem cnraw_orthogonal_2 : dotp 2 (cnraw A V 2) (fun i => Jm i 0) = z0.
Proof. rg. Qed.
Theorem cnraw_orthogonal_3 j : j < 2 -> dotp 3 (cnraw A V 3) (fun i => Jm i j) = z0.
Proof. intros Hj. fin j; rg. Qed.
(* its squared length is the Gram determinant of J (so it vanishes only on degenerate cells) *)
Theorem cnraw_length_2 : nrm2 2 (cnraw A V 2) = det 1 (gram 2 Jm).
Proof. rg. Qed.
Theorem cnraw_length_3 : nrm2 3 (cnraw A V 3) = det 2 (gram 3 Jm).
Proof. rg. Qed.

End Normals.

Print Assumptions ndir_outward_tet3.
Print Assumptions ndir_tangent_tri3.
Print Assumptions fnormal_unit.
Print Assumptions fnormal_interval_outward.
Print Assumptions cnraw_length_3.
